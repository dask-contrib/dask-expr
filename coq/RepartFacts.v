(* RepartFacts.v -- facts about the notions of Repart.v (lastZ, sortedZ, valid_divs, respects) that both the planner
   proofs (RepartProofs.v) and the alignment proofs (AlignProofs.v) use. *)
From DX Require Import Base ListFacts Repart.
From Coq Require Import ZifyBool.
Open Scope Z_scope.

(* the model declares `row` explicitly; it is implicit from here on *)
Arguments exec_slice {row}. Arguments exec_out {row}. Arguments exec_plan {row}.
Arguments spec_out {row}. Arguments spec_plan {row}.
Arguments respects {row}. Arguments parts_sorted {row}.

Lemma sorted_cons_iff : forall x l, sortedZ (x :: l) <-> (forall y, In y l -> x <= y) /\ sortedZ l.
Proof.
  intros x l. split.
  - intros Hs. split; [|apply Hs]. revert x Hs.
    induction l as [|z l IH]; intros x [Hxz Hs] y Hy; [destruct Hy|].
    destruct Hy as [<-|Hy]; [exact Hxz|]. pose proof (IH z Hs y Hy). lia.
  - intros [H1 H2]. split; [|exact H2]. destruct l as [|y l]; [exact I|apply H1; left; reflexivity].
Qed.

Lemma lastZ_nth : forall l, lastZ l = nthZ l (length l - 1).
Proof. intros l. apply last_nth. Qed.

Lemma strict_valid : forall l, strict_incr l = true -> (2 <= length l)%nat -> valid_divs l = true.
Proof. intros l Hs Hl. unfold valid_divs. lia. Qed.

Lemma strict_adj : forall l, strict_incr l = true ->
  forall t, (t < length l - 1)%nat -> nthZ l t < nthZ l (S t).
Proof.
  induction l as [|x [|y l] IH]; intros Hs t Hl; cbn [length] in Hl; try lia.
  change (strict_incr (x :: y :: l)) with ((x <? y) && strict_incr (y :: l)) in Hs.
  destruct t as [|t]; [unfold nthZ; cbn [nth]; lia|].
  apply IH; [|cbn [length]]; lia.
Qed.

Lemma nthZ_app1 : forall l r t, (t < length l)%nat -> nthZ (l ++ r) t = nthZ l t.
Proof. intros. unfold nthZ. apply app_nth1. assumption. Qed.
Lemma nthZ_snoc : forall l x, nthZ (l ++ [x]) (length l) = x.
Proof. intros. unfold nthZ. rewrite app_nth2 by lia. rewrite Nat.sub_diag. reflexivity. Qed.

(* what valid_divs says of f = nthZ l, N = length l: strictly increasing, except that the last step may be an
   equality *)
Definition almost_incr (f : nat -> Z) (N : nat) : Prop :=
  (2 <= N)%nat /\ (forall t, (t < N - 2)%nat -> f t < f (S t)) /\ f (N - 2)%nat <= f (N - 1)%nat.

Lemma valid_almost_incr : forall l, valid_divs l = true -> almost_incr (nthZ l) (length l).
Proof.
  intros l H. unfold valid_divs in H. split; [lia|].
  destruct (strict_incr l) eqn:Hs.
  - pose proof (strict_adj l Hs) as A. split; [intros t Ht; apply A; lia|].
    specialize (A (length l - 2)%nat). replace (S (length l - 2)) with (length l - 1)%nat in A by lia. lia.
  - (* l = removelast l ++ [last]: below the last position l reads as removelast l, which is strictly increasing *)
    assert (E : l = removelast l ++ [lastZ l]) by (apply app_removelast_last; intros ->; discriminate H).
    assert (Hr : length l = S (length (removelast l))) by (rewrite E at 1; rewrite app_length; cbn [length]; lia).
    assert (Hn : forall t, (t < length l - 1)%nat -> nthZ l t = nthZ (removelast l) t).
    { intros t Ht. rewrite E at 1. apply nthZ_app1. lia. }
    split.
    + intros t Ht. rewrite !Hn by lia. apply strict_adj; lia.
    + rewrite <- lastZ_nth, Hn by lia. rewrite (lastZ_nth (removelast l)) in H.
      replace (length l - 2)%nat with (length (removelast l) - 1)%nat by lia. lia.
Qed.

Lemma almost_incr_le : forall {f N}, almost_incr f N -> forall t t', (t <= t')%nat -> (t' < N)%nat -> f t <= f t'.
Proof.
  intros f N (HN & H1 & H2). apply (adjacent_mono Z.le Z.le_refl Z.le_trans).
  intros u Hu. destruct (Nat.eq_dec u (N - 2)) as [->|NE].
  - replace (S (N - 2)) with (N - 1)%nat by lia. exact H2.
  - pose proof (H1 u). lia.
Qed.

(* on concrete data [respects] is decided by evaluation *)
Lemma respects_forallb : forall row (idx : row -> Z) a P,
  length P = (length a - 1)%nat ->
  forallb (fun i => forallb (fun r => in_target a i (idx r)) (nth i P [])) (seq 0 (length P)) = true ->
  respects idx a P.
Proof.
  intros row idx a P Hl H. split; [exact Hl|]. intros i r Hr.
  destruct (Nat.lt_ge_cases i (length P)) as [Hi|Hi]; [|rewrite nth_overflow in Hr by exact Hi; destruct Hr].
  rewrite forallb_seq in H. specialize (H i). rewrite forallb_forall in H. apply H; [lia|exact Hr].
Qed.

(* PropC08.v -- property C08: expression names are deterministic and collision-free.  Statements only.
   Determinism across processes / hash seeds / construction order is observed by the harness (tokenize is
   external); what is proved: given a collision-free fixed-width token, names collide iff head and operands
   coincide, and -- over the class table regenerated from the source on every run -- no two classes without a
   variadic operand share a static name head with the same arity unless both names tokenize the class (the list of
   pairs exempted by hand, ClassTableChecks.reviewed_pairs, is empty). *)
From Coq Require Import String.
From DX Require Import ClassTableChecks Names.

Theorem C08_name_collision_iff : forall (Operands : Type) (tok : Operands -> string),
  (forall a b, tok a = tok b -> a = b) -> (forall a, String.length (tok a) = 32) ->
  forall h1 h2 o1 o2, name Operands tok h1 o1 = name Operands tok h2 o2 <-> (h1 = h2 /\ o1 = o2).
Proof. exact name_collision_iff. Qed.
Print Assumptions C08_name_collision_iff.

Theorem C08_heads_unambiguous : heads_unambiguous_b = true.
Proof. exact heads_unambiguous. Qed.
Print Assumptions C08_heads_unambiguous.

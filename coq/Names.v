(* Names.v -- model of Expr._name:  name = head ++ "-" ++ token(operands), where the token is a
   fixed-width digest (dask.base.tokenize: 32 hex characters).  The digest being collision-free on
   normalised operands is an ASSUMPTION about dask's tokenize (trusted base); given it, two expressions
   share a name iff they have the same head and the same operands. *)
From Coq Require Import String Lia.
Open Scope string_scope.

Lemma length_append : forall a b, String.length (a ++ b) = String.length a + String.length b.
Proof. induction a as [|c a IH]; intros b; simpl; [reflexivity|rewrite IH; reflexivity]. Qed.

Lemma append_inj_same_len : forall a1 a2 b1 b2,
  String.length a1 = String.length a2 -> a1 ++ b1 = a2 ++ b2 -> a1 = a2 /\ b1 = b2.
Proof.
  induction a1 as [|c a1 IH]; intros a2 b1 b2 Hl H; destruct a2 as [|d a2]; simpl in *; try discriminate.
  - split; [reflexivity|exact H].
  - inversion H; subst. destruct (IH a2 b1 b2) as [E1 E2]; [lia|assumption|]. subst. split; reflexivity.
Qed.

Section Names.
  Variable Operands : Type.
  Variable tok : Operands -> string.
  Hypothesis tok_inj : forall a b, tok a = tok b -> a = b.          (* tokenize is collision-free (assumed) *)
  Hypothesis tok_len : forall a, String.length (tok a) = 32.          (* fixed-width hex digest *)

  Definition name (head : string) (ops : Operands) : string := head ++ "-" ++ tok ops.

  Theorem name_collision_iff : forall h1 h2 o1 o2, name h1 o1 = name h2 o2 <-> (h1 = h2 /\ o1 = o2).
  Proof.
    intros h1 h2 o1 o2. split.
    - intro H. unfold name in H.
      assert (Hl : String.length h1 = String.length h2).
      { apply (f_equal String.length) in H. rewrite !length_append in H. simpl in H. rewrite !tok_len in H. lia. }
      destruct (append_inj_same_len h1 h2 _ _ Hl H) as [E1 E2]. split; [exact E1|].
      inversion E2 as [E3]. apply tok_inj. exact E3.
    - intros [-> ->]. reflexivity.
  Qed.

  (* distinct names give disjoint key sets when every key of a layer is (own name, index...) *)
  Theorem keys_disjoint : forall h1 h2 o1 o2 (i j : nat),
    (h1, o1) <> (h2, o2) -> (name h1 o1, i) <> (name h2 o2, j).
  Proof.
    intros h1 h2 o1 o2 i j Hne H. inversion H as [[Hn Hi]]. apply name_collision_iff in Hn. destruct Hn; subst. apply Hne. reflexivity.
  Qed.
End Names.

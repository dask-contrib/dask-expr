(* RepartCount.v -- count-based repartitioning (RepartitionToFewer / ToMore): the boundary lists ToFewer accepts (`chain`),
   execution of the ToMore layer with split_evenly as a hypothesis (`exec_more`), and the proofs that rows are kept. *)
From DX Require Import Base ListFacts Repart.
Set Implicit Arguments.

(* boundaries as RepartitionToFewer needs them: non-decreasing, ending at e *)
Fixpoint chain (s : nat) (bs : list nat) (e : nat) : Prop :=
  match bs with
  | [] => s = e
  | b :: r => s <= b /\ chain b r e
  end.

(* the outputs for boundaries s :: bs read the input partitions s .. e-1, once each, in order *)
Lemma exec_fewer_chain : forall A (P : list (list A)) bs s e,
  chain s bs e ->
  s <= e /\ concat (exec_fewer (s :: bs) P) = flat_map (fun j => nth j P []) (seq s (e - s)).
Proof.
  intros A P bs. induction bs as [|b r IH]; intros s e Hc.
  - simpl in Hc. subst. rewrite Nat.sub_diag. split; [lia|reflexivity].
  - destruct Hc as [Hsb Hc]. destruct (IH b e Hc) as [Hbe E]. split; [lia|].
    change (exec_fewer (s :: b :: r) P) with (flat_map (fun j => nth j P []) (seq s (b - s)) :: exec_fewer (b :: r) P).
    cbn [concat]. rewrite E, <- flat_map_app, seq_app_range by lia. reflexivity.
Qed.

Theorem fewer_eq : forall A (P : list (list A)) bs,
  chain 0 bs (length P) -> concat (exec_fewer (0 :: bs) P) = concat P.
Proof.
  intros A P bs H. destruct (@exec_fewer_chain A P bs 0 (length P) H) as [_ ->]. rewrite Nat.sub_0_r. apply concat_nth_seq.
Qed.

Lemma fewer_count : forall A (P : list (list A)) bs, length (exec_fewer (0 :: bs) P) = length bs.
Proof.
  intros A P bs. unfold exec_fewer, fewer_ranges. rewrite !map_length.
  generalize 0. induction bs as [|b r IH]; intros s; [reflexivity|]. cbn [ranges length]. f_equal. apply IH.
Qed.

(* the tasks of one input partition *)
Definition mtasks (ik : nat * nat) : list mtask :=
  let '(i, k) := ik in if k =? 1 then [MAlias i] else map (fun jj => MPiece i jj) (seq 0 k).

Lemma more_layer_eq : forall nsplits, more_layer nsplits = flat_map mtasks (combine (seq 0 (length nsplits)) nsplits).
Proof. reflexivity. Qed.

Section More.
  Variable row : Type.
  Variable split : nat -> list row -> list (list row).          (* dask's split_evenly *)
  Hypothesis split_concat : forall k p, 1 <= k -> concat (split k p) = p.
  Hypothesis split_length : forall k p, length (split k p) = k.

  Definition exec_mtask (nsplits : list nat) (P : list (list row)) (t : mtask) : list row :=
    match t with
    | MAlias i => nth i P []
    | MPiece i jj => nth jj (split (nth i nsplits 0) (nth i P [])) []
    end.
  Definition exec_more (nsplits : list nat) (P : list (list row)) : list (list row) :=
    map (exec_mtask nsplits P) (more_layer nsplits).

  Lemma more_one : forall nsplits P i k, nth i nsplits 0 = k -> 1 <= k ->
    concat (map (exec_mtask nsplits P) (mtasks (i, k))) = nth i P [].
  Proof.
    intros nsplits P i k Hk H1. unfold mtasks. destruct (k =? 1) eqn:E.
    - simpl. apply app_nil_r.
    - rewrite map_map. cbn [exec_mtask]. rewrite Hk.
      rewrite <- (split_length k (nth i P [])) at 1.
      rewrite (map_nth_seq [] (split k (nth i P []))). apply split_concat. exact H1.
  Qed.

  Lemma more_layer_from : forall nsplits P (l : list nat) s,
    (forall j k, nth_error l j = Some k -> nth (s + j) nsplits 0 = k /\ 1 <= k) ->
    concat (map (exec_mtask nsplits P) (flat_map mtasks (combine (seq s (length l)) l)))
    = flat_map (fun i => nth i P []) (seq s (length l)).
  Proof.
    intros nsplits P l. induction l as [|k r IH]; intros s H; [reflexivity|].
    cbn [length seq combine flat_map]. rewrite map_app, concat_app. f_equal.
    - destruct (H 0 k eq_refl) as [Hn Hk]. rewrite Nat.add_0_r in Hn. apply more_one; assumption.
    - apply IH. intros j k' Hj. specialize (H (S j) k' Hj). rewrite Nat.add_succ_r in H. exact H.
  Qed.

  (* every input row comes out exactly once, in order, whatever the split counts (all >= 1) *)
  Theorem more_eq : forall nsplits P,
    length nsplits = length P -> (forall k, In k nsplits -> 1 <= k) ->
    concat (exec_more nsplits P) = concat P.
  Proof.
    intros nsplits P Hlen Hpos. unfold exec_more. rewrite more_layer_eq, (more_layer_from nsplits P nsplits 0).
    - rewrite Hlen. apply concat_nth_seq.
    - intros j k Hj. cbn [Nat.add]. split.
      + apply nth_error_nth with (d:=0) in Hj. exact Hj.
      + apply Hpos. eapply nth_error_In; eauto.
  Qed.
End More.

Lemma more_layer_length : forall nsplits, length (more_layer nsplits) = sumN nsplits.
Proof.
  intros nsplits. rewrite more_layer_eq. generalize 0. induction nsplits as [|k r IH]; intros s; [reflexivity|].
  cbn [length seq combine flat_map sumN]. rewrite app_length, IH. f_equal.
  unfold mtasks. destruct (Nat.eqb_spec k 1) as [->|]; [reflexivity|]. rewrite map_length. apply seq_length.
Qed.

Lemma sumN_repeat : forall x n, sumN (repeat x n) = n * x.
Proof. induction n; simpl; [reflexivity|]. rewrite IHn. lia. Qed.

Theorem more_nsplits_ok : forall n_in n_out, 1 <= n_in -> n_in <= n_out ->
  length (more_nsplits n_in n_out) = n_in /\
  (forall k, In k (more_nsplits n_in n_out) -> 1 <= k) /\
  sumN (more_nsplits n_in n_out) = n_out.
Proof.
  intros n_in n_out H1 H2. unfold more_nsplits. destruct n_in as [|m]; [lia|].
  assert (Hd : 1 <= n_out / S m) by (apply Nat.div_le_lower_bound; lia).
  split; [rewrite app_length, repeat_length; simpl; lia|]. split.
  - intros k Hk. apply in_app_or in Hk. destruct Hk as [Hk|[Hk|[]]].
    + apply repeat_spec in Hk. lia.
    + lia.
  - rewrite sumN_app, sumN_repeat. cbn [sumN].
    pose proof (Nat.div_mod n_out (S m) ltac:(lia)). nia.
Qed.

Example more_nsplits_3_8 : more_nsplits 3 8 = [2; 2; 4].
Proof. reflexivity. Qed.
Example fewer_chain_example : chain 0 [2; 5; 7] 7 /\ fewer_ranges [0; 2; 5; 7] = [[0;1];[2;3;4];[5;6]].
Proof. split; [simpl; lia|reflexivity]. Qed.

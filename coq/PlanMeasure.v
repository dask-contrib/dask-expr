(* PlanMeasure.v -- an executable measure [mu : expr -> nat * nat] that decreases lexicographically along
   every step accepted by [rule_ok_strict] = [rule_ok] plus: a step that inserts a projection (the push
   schemas S4 / S5 / S7b / S8, and S6) or keeps the one above a source (S9) must make it strictly narrower. *)
From DX Require Import Base Plan PlanProofs.

(* number of static columns flowing out of a node; 1 for series / scalars (and ill-schemed terms) *)
Definition width (e : expr) : nat :=
  match schema e with
  | Some (KFrame cs) => length cs
  | Some (KRow cs) => length cs
  | _ => 1
  end.

Fixpoint size (e : expr) : nat :=
  match e with
  | Src _ _ | SrcS _ _ => 1
  | Proj e _ | ProjS e _ | BinL _ e _ | BinR _ _ e | Un _ e | Fillna e _ | Rename e _
  | RSum e | RCount e | RLen e => S (size e)
  | Filter a b | Bin _ a b | Assign a _ b => S (size a + size b)
  end.

(* M1: every NON-projection node costs 1 + the widths of the collections flowing INTO it
   (a source: 1 + the number of columns it reads; RLen needs no column at all: 1). *)
Fixpoint M1 (e : expr) : nat :=
  match e with
  | Src _ cs => 1 + length cs
  | SrcS _ _ => 2
  | Proj e _ | ProjS e _ => M1 e
  | BinL _ e _ | BinR _ _ e | Un _ e | Fillna e _ | Rename e _ | RSum e | RCount e =>
      1 + width e + M1 e
  | Filter a b | Bin _ a b | Assign a _ b => 1 + width a + width b + M1 a + M1 b
  | RLen e => 1 + M1 e
  end.

(* M2: every projection node costs the size of its subtree (= how far it still is from the sources) *)
Fixpoint M2 (e : expr) : nat :=
  match e with
  | Src _ _ | SrcS _ _ => 0
  | Proj e _ | ProjS e _ => 1 + size e + M2 e
  | BinL _ e _ | BinR _ _ e | Un _ e | Fillna e _ | Rename e _ | RSum e | RCount e | RLen e => M2 e
  | Filter a b | Bin _ a b | Assign a _ b => M2 a + M2 b
  end.

Definition mu (e : expr) : nat * nat := (M1 e, M2 e).

Definition mu_lt (a b : nat * nat) : Prop :=
  fst a < fst b \/ (fst a = fst b /\ snd a < snd b).
Definition mu_ltb (a b : nat * nat) : bool :=
  Nat.ltb (fst a) (fst b) || (Nat.eqb (fst a) (fst b) && Nat.ltb (snd a) (snd b)).

Lemma mu_ltb_spec : forall a b, mu_ltb a b = true <-> mu_lt a b.
Proof.
  intros [a1 a2] [b1 b2]. unfold mu_ltb, mu_lt. simpl.
  rewrite orb_true_iff, andb_true_iff, !Nat.ltb_lt, Nat.eqb_eq. tauto.
Qed.

Theorem mu_lt_wf : well_founded mu_lt.
Proof.
  intros [a b]. revert b. induction a as [a IHa] using lt_wf_ind.
  induction b as [b IHb] using lt_wf_ind.
  constructor. intros [a' b'] [H|[H1 H2]]; simpl in *.
  - apply IHa. exact H.
  - subst a'. apply IHb. exact H2.
Qed.

(* push schemas: the non-bare variant inserts a projection node, so it must narrow strictly;
   the two bare variants only move the projection down and always decrease *)
Definition push_strict (parent result : expr) : bool :=
  match pview parent with
  | Some (P, inner) =>
      match fview inner with
      | Some (F, x) =>
          match schema x with
          | Some (KFrame xs) =>
              (match inner_U (strip_p result) with
               | Some U => nodupb U && subsetb U xs && Nat.ltb (length U) (length xs)
                           && expr_eqb result (pbuild P (fbuild F (Proj x U)))
               | None => false
               end)
              ||
              (bare_allowed F &&
               match P with
               | PProj c => expr_eqb result (fbuild F (Proj x c))
               | PProjS c => expr_eqb result (fbuild F (ProjS x c))
               end)
          | _ => false
          end
      | None => false
      end
  | None => false
  end.

(* S6: the operands of the Bin node get strictly narrower in total *)
Definition s6_narrow (parent result : expr) : bool :=
  match pview parent, pview result with
  | Some (_, Bin _ a b), Some (_, Bin _ a' b') =>
      match schema a, schema b, side_U a a', side_U b b' with
      | Some (KFrame ca), Some (KFrame cb), Some sa, Some sb =>
          Nat.ltb (length (side_cols ca sa) + length (side_cols cb sb)) (length ca + length cb)
      | _, _, _, _ => false
      end
  | _, _ => false
  end.

(* S9: absorbing the projection removes a node; the variant that keeps the projection must make
   the source strictly narrower *)
Definition s9_narrow (parent result : expr) : bool :=
  match pview parent with
  | Some (P, Src id cs) =>
      (match P with
       | PProj c => expr_eqb result (Src id c)
       | PProjS c => expr_eqb result (SrcS id c)
       end)
      ||
      (match pview result with
       | Some (_, Src _ c') => Nat.ltb (length c') (length cs)
       | _ => false
       end)
  | _ => false
  end.

Definition strict_cond (p r : expr) : bool :=
  s1_ok p r || s2_ok p r || (negb (Nat.eqb (push_rule p r) 0) && push_strict p r)
  || (s6_ok p r && s6_narrow p r) || s7a_ok p r || (s9_ok p r && s9_narrow p r)
  || s10_ok p r || s13_ok p r.

Definition rule_ok_strict (p r : expr) : bool := rule_ok p r && strict_cond p r.

Lemma rule_ok_strict_ok : forall p r, rule_ok_strict p r = true -> rule_ok p r = true.
Proof. intros p r H. apply andb_true_iff in H. tauto. Qed.

(* [mu_lt] is not closed under contexts (M2 of an enclosing projection counts the size of what is
   below it): [dec] adds that the size does not grow; [decle], its non-strict version, is what holds
   of an operand in which the replaced plan does not occur. *)
Definition dec (a b : expr) : Prop :=
  M1 b < M1 a \/ (M1 b = M1 a /\ M2 b < M2 a /\ size b <= size a).
Definition decle (a b : expr) : Prop :=
  M1 b < M1 a \/ (M1 b = M1 a /\ M2 b <= M2 a /\ size b <= size a).

Lemma dec_mu_lt : forall a b, dec a b -> mu_lt (mu b) (mu a).
Proof. intros a b [H|[H1 [H2 _]]]; unfold mu_lt, mu; simpl; [left|right]; auto. Qed.

Lemma dec_trans : forall a b c, dec a b -> dec b c -> dec a c.
Proof. unfold dec. intros. lia. Qed.

Lemma M1_pbuild : forall P e, M1 (pbuild P e) = M1 e.
Proof. intros [c|c] e; reflexivity. Qed.
Lemma M2_pbuild : forall P e, M2 (pbuild P e) = 1 + size e + M2 e.
Proof. intros [c|c] e; reflexivity. Qed.
Lemma size_pbuild : forall P e, size (pbuild P e) = S (size e).
Proof. intros [c|c] e; reflexivity. Qed.

(* what the operand that F itself carries (the predicate of a filter, the value of an assign) adds to
   M1 / M2 / size of [fbuild F x] *)
Definition xM1 (F : fctx) : nat :=
  match F with
  | FFilter p => width p + M1 p
  | FAssign _ v => width v + M1 v
  | _ => 0
  end.
Definition xM2 (F : fctx) : nat :=
  match F with FFilter p => M2 p | FAssign _ v => M2 v | _ => 0 end.
Definition xsize (F : fctx) : nat :=
  match F with FFilter p => size p | FAssign _ v => size v | _ => 0 end.

Lemma M1_fbuild : forall F x, M1 (fbuild F x) = 1 + width x + M1 x + xM1 F.
Proof. intros [[]| | |] x; simpl; lia. Qed.
Lemma M2_fbuild : forall F x, M2 (fbuild F x) = M2 x + xM2 F.
Proof. intros [[]| | |] x; simpl; lia. Qed.
Lemma size_fbuild : forall F x, size (fbuild F x) = 1 + size x + xsize F.
Proof. intros [[]| | |] x; simpl; lia. Qed.

Lemma size_node1 : forall u e, size (node1 u e) = S (size e).
Proof. intros [[c|c]|[]|m| | |] e; reflexivity. Qed.
Lemma size_node2 : forall b x y, size (node2 b x y) = S (size x + size y).
Proof. intros [|o|k] x y; reflexivity. Qed.
Lemma M1_node1 : forall u e,
  M1 (node1 u e) = match u with U_p _ => 0 | U_len => 1 | _ => 1 + width e end + M1 e.
Proof. intros [[c|c]|[]|m| | |] e; reflexivity. Qed.
Lemma M1_node2 : forall b x y, M1 (node2 b x y) = 1 + width x + width y + M1 x + M1 y.
Proof. intros [|o|k] x y; reflexivity. Qed.
Lemma M2_node1 : forall u e,
  M2 (node1 u e) = match u with U_p _ => 1 + size e | _ => 0 end + M2 e.
Proof. intros [[c|c]|[]|m| | |] e; reflexivity. Qed.
Lemma M2_node2 : forall b x y, M2 (node2 b x y) = M2 x + M2 y.
Proof. intros [|o|k] x y; reflexivity. Qed.

Lemma width_frame : forall x xs, schema x = Some (KFrame xs) -> width x = length xs.
Proof. intros x xs H. unfold width. rewrite H. reflexivity. Qed.

Lemma width_proj : forall x xs U, schema x = Some (KFrame xs) -> nodupb U = true ->
  subsetb U xs = true -> width (Proj x U) = length U.
Proof.
  intros x xs U Hs Hn Hsub. unfold width. cbn [schema]. rewrite Hs. simpl. rewrite Hn, Hsub.
  reflexivity.
Qed.

Lemma width_projs : forall x c, width (ProjS x c) = 1.
Proof.
  intros x c. unfold width. cbn [schema]. destruct (schema x) as [[xs| | |]|]; try reflexivity.
  simpl. destruct (memb c xs); reflexivity.
Qed.

Lemma width_pbuild : forall P x xs, schema x = Some (KFrame xs) -> k_P P (KFrame xs) <> None ->
  width (pbuild P x) = length (pcols P).
Proof.
  intros [c|c] x xs Hs H; unfold width; rewrite schema_pbuild, Hs; simpl in *.
  - destruct (nodupb c && subsetb c xs); [reflexivity|congruence].
  - destruct (memb c xs); [reflexivity|congruence].
Qed.

Lemma width_subst : forall a b e, schema a = schema b -> width (subst a b e) = width e.
Proof. intros a b e H. unfold width. rewrite (schema_congruence a b H e). reflexivity. Qed.

Lemma sub_length : forall c xs, nodupb c = true -> subsetb c xs = true -> length c <= length xs.
Proof.
  intros c xs Hn Hs. apply NoDup_incl_length.
  - apply nodupb_NoDup. exact Hn.
  - intros a Ha. rewrite subsetb_incl in Hs. auto.
Qed.

Lemma k_P_cols : forall P xs, k_P P (KFrame xs) <> None -> length (pcols P) <= length xs.
Proof.
  intros [c|c] xs H; simpl in H.
  - destruct (nodupb c && subsetb c xs) eqn:E; [|congruence].
    apply andb_true_iff in E. destruct E as [Hn Hs]. apply sub_length; assumption.
  - destruct (memb c xs) eqn:E; [|congruence].
    apply (sub_length [c] xs); [reflexivity|]. simpl. rewrite E. reflexivity.
Qed.

Lemma bare_schema : forall F x xs k, bare_allowed F = true -> schema x = Some (KFrame xs) ->
  schema (fbuild F x) = Some k -> k = KFrame xs.
Proof.
  intros [[]|p|a v|m] x xs k Hb Hx H; simpl in Hb, H; try discriminate; rewrite Hx in H;
    cbn [bind] in H; try (injection H as <-; reflexivity).
  destruct (schema p) as [[| | |]|]; simpl in H; try discriminate. injection H as <-. reflexivity.
Qed.

Lemma schema_filter : forall x p, schema (Filter x p) <> None ->
  schema p = Some KSeries /\ schema (Filter x p) = schema x.
Proof.
  intros x p H. cbn [schema] in *.
  destruct (schema x) as [[]|], (schema p) as [[]|]; simpl in *; try congruence; auto.
Qed.

Lemma s1_dec : forall p r, s1_ok p r = true -> dec p r.
Proof.
  intros p r H. apply s1_ok_inv in H. destruct H as (P & x & a & -> & ->). right.
  rewrite !M1_pbuild, !M2_pbuild, !size_pbuild. simpl. lia.
Qed.

Lemma s2_dec : forall p r, s2_ok p r = true -> dec p r.
Proof.
  intros p r H. apply s2_ok_inv in H. destruct H as (xs & _ & ->). right. simpl. lia.
Qed.

Lemma push_dec : forall p r, push_strict p r = true -> schema p <> None -> dec p r.
Proof.
  intros p r H Hp. unfold push_strict in H.
  destruct (pview p) as [[P inner]|] eqn:Ev; [|discriminate].
  destruct (fview inner) as [[F x]|] eqn:Ef; [|discriminate].
  destruct (schema x) as [[xs| | |]|] eqn:Es; try discriminate.
  apply pview_inv in Ev. apply fview_inv in Ef. subst p inner.
  apply orb_true_iff in H. destruct H as [H|H].
  - destruct (inner_U (strip_p r)) as [U|]; [|discriminate].
    rewrite !andb_true_iff in H. destruct H as [[[Hn Hs] Hlt] Hr]. apply expr_eqb_eq in Hr. subst r.
    apply Nat.ltb_lt in Hlt. left.
    rewrite !M1_pbuild, !M1_fbuild. cbn [M1].
    rewrite (width_proj _ _ _ Es Hn Hs), (width_frame _ _ Es). lia.
  - (* both bare variants move the outer projection below F *)
    apply andb_true_iff in H. destruct H as [Hb H].
    assert (Hr : r = fbuild F (pbuild P x)) by (destruct P; apply expr_eqb_eq in H; exact H).
    subst r. clear H. rewrite schema_pbuild in Hp.
    destruct (schema (fbuild F x)) as [k|] eqn:EF; cbn [bind] in Hp; [|congruence].
    pose proof (bare_schema _ _ _ _ Hb Es EF) as ->.
    pose proof (k_P_cols _ _ Hp) as Hle. pose proof (width_pbuild _ _ _ Es Hp) as W.
    unfold dec. rewrite M1_pbuild, M2_pbuild, size_pbuild, !M1_fbuild, !M2_fbuild, !size_fbuild.
    rewrite M1_pbuild, M2_pbuild, size_pbuild, W, (width_frame _ _ Es). lia.
Qed.

Lemma side_width : forall a a' ca sa c, side_U a a' = Some sa -> side_chk ca c sa = true ->
  schema a = Some (KFrame ca) ->
  width a' = length (side_cols ca sa) /\ M1 a' = M1 a.
Proof.
  intros a a' ca sa c Hs Hc Hk.
  apply side_U_inv in Hs. destruct Hs as [[-> ->]|(U & -> & ->)]; simpl in Hc.
  - split; [apply width_frame; exact Hk|reflexivity].
  - rewrite !andb_true_iff in Hc. destruct Hc as [[Hn HU] _].
    split; [eapply width_proj; eassumption|reflexivity].
Qed.

Lemma s6_dec : forall p r, s6_ok p r = true -> s6_narrow p r = true -> dec p r.
Proof.
  intros p r H Hn. apply s6_ok_inv in H.
  destruct H as (P & o & a & b & a' & b' & ca & cb & sa & sb
                 & -> & -> & Esa & Esb & Ua & Ub & Hca & Hcb & _).
  unfold s6_narrow in Hn. rewrite !pview_pbuild, Esa, Esb, Ua, Ub in Hn. apply Nat.ltb_lt in Hn.
  destruct (side_width _ _ _ _ _ Ua Hca Esa) as [Wa Ma].
  destruct (side_width _ _ _ _ _ Ub Hcb Esb) as [Wb Mb].
  left. rewrite !M1_pbuild. cbn [M1]. rewrite Wa, Wb, Ma, Mb.
  rewrite (width_frame _ _ Esa), (width_frame _ _ Esb). lia.
Qed.

Lemma s7a_dec : forall p r, s7a_ok p r = true -> dec p r.
Proof.
  intros p r H. apply s7a_ok_inv in H. destruct H as (P & x & k & v & -> & -> & _).
  left. rewrite !M1_pbuild. cbn [M1]. lia.
Qed.

Lemma s9_dec : forall p r, s9_ok p r = true -> s9_narrow p r = true -> schema p <> None -> dec p r.
Proof.
  intros p r H Hn Hp. apply s9_ok_inv in H.
  destruct H as (P & id & cs & -> & [->|(c' & -> & _)]).
  - (* absorbed: decreases whatever [s9_narrow] says *)
    rewrite schema_pbuild in Hp. cbn [schema] in Hp.
    destruct (nodupb cs); cbn [bind] in Hp; [|congruence]. pose proof (k_P_cols _ _ Hp) as Hle.
    unfold dec. destruct P; cbn [pbuild src pcols M1 M2 size length] in *; lia.
  - unfold s9_narrow in Hn. rewrite !pview_pbuild in Hn. apply orb_true_iff in Hn.
    destruct Hn as [Hn|Hn]; [destruct P; discriminate|].
    apply Nat.ltb_lt in Hn. left. rewrite !M1_pbuild. cbn [M1]. lia.
Qed.

Lemma rowwise_M1 : forall t x, schema t = schema x -> M1 x <= M1 t ->
  forall q, rowwise t q = true -> M1 (subst t x q) + (M1 t - M1 x) <= M1 q.
Proof.
  intros t x Hs Hle.
  apply (subst_compat t x (fun q q' => rowwise t q = true -> M1 q' + (M1 t - M1 x) <= M1 q)).
  - lia.
  - intros id P E H. rewrite rowwise_src in H by exact E. discriminate.
  - intros u q E IH H. destruct (rowwise_node1 _ _ _ E H) as [_ Hq]. specialize (IH Hq).
    rewrite !M1_node1, (width_subst t x _ Hs). lia.
  - intros b y z E IHy IHz H. destruct (rowwise_node2 _ _ _ _ E H) as (_ & Hy & Hz).
    specialize (IHy Hy). specialize (IHz Hz). rewrite !M1_node2, !(width_subst t x _ Hs). lia.
Qed.

Lemma s10_dec : forall p r, s10_ok p r = true -> schema p <> None -> dec p r.
Proof.
  intros p0 r H Hp. apply s10_ok_inv in H. destruct H as (x & p & q & -> & Hrow & ->).
  destruct (schema_filter _ _ Hp) as [Eq Ht]. rewrite Ht in Hp. destruct (schema_filter _ _ Hp) as [Ep Hs].
  assert (Hle : M1 x <= M1 (Filter x p)) by (cbn [M1]; lia).
  pose proof (rowwise_M1 _ _ Hs Hle q Hrow) as Hq.
  assert (Wt : width (Filter x p) = width x) by (unfold width; rewrite Hs; reflexivity).
  assert (Wp : width p = 1) by (unfold width; rewrite Ep; reflexivity).
  assert (Wq : width q = 1) by (unfold width; rewrite Eq; reflexivity).
  assert (Wb : width (Bin BAnd p (subst (Filter x p) x q)) = 1).
  { unfold width. cbn [schema]. rewrite (schema_congruence _ _ Hs q), Ep, Eq. reflexivity. }
  left. cbn [M1] in Hq |- *. rewrite (width_subst _ _ _ Hs), Wb, Wt, Wp, Wq in *. lia.
Qed.

Lemma len_reach_dec : forall t e, len_reach t e = true -> dec e t.
Proof.
  apply len_reach_ind.
  - intros a b c. apply dec_trans.
  - intros u e Hu. unfold dec. rewrite M1_node1, M2_node1, size_node1.
    destruct u; try discriminate; lia.
  - intros b x y _. left. rewrite M1_node2. lia.
Qed.

Lemma s13_dec : forall p r, s13_ok p r = true -> dec p r.
Proof.
  intros p r H. apply s13_ok_inv in H. destruct H as (e & t & -> & -> & H).
  apply len_reach_dec in H. unfold dec in *. cbn [M1 M2 size]. lia.
Qed.

Lemma strict_dec : forall p r, rule_ok_strict p r = true -> schema p <> None -> dec p r.
Proof.
  intros p r H Hp. apply andb_true_iff in H. destruct H as [_ H]. unfold strict_cond in H.
  repeat (apply orb_true_iff in H; destruct H as [H|H]).
  - apply s1_dec. exact H.
  - apply s2_dec. exact H.
  - apply andb_true_iff in H. destruct H as [_ H]. apply push_dec; assumption.
  - apply andb_true_iff in H. destruct H as [H1 H2]. apply s6_dec; assumption.
  - apply s7a_dec. exact H.
  - apply andb_true_iff in H. destruct H as [H1 H2]. apply s9_dec; assumption.
  - apply s10_dec; assumption.
  - apply s13_dec. exact H.
Qed.

Theorem step_decreases : forall p r, rule_ok_strict p r = true -> schema p <> None ->
  mu_lt (mu r) (mu p).
Proof. intros p r H Hp. apply dec_mu_lt. apply strict_dec; assumption. Qed.

Fixpoint occurs (a e : expr) : bool :=
  expr_eqb a e ||
  match e with
  | Src _ _ | SrcS _ _ => false
  | Proj e1 _ | ProjS e1 _ | BinL _ e1 _ | BinR _ _ e1 | Un _ e1 | Fillna e1 _ | Rename e1 _
  | RSum e1 | RCount e1 | RLen e1 => occurs a e1
  | Filter x y | Bin _ x y | Assign x _ y => occurs a x || occurs a y
  end.

Lemma occurs_src : forall a id P, occurs a (src id P) = expr_eqb a (src id P).
Proof. intros a id [c|c]; cbn [src occurs]; apply orb_false_r. Qed.
Lemma occurs_node1 : forall a u e, occurs a (node1 u e) = expr_eqb a (node1 u e) || occurs a e.
Proof. intros a [[c|c]|[]|m| | |] e; reflexivity. Qed.
Lemma occurs_node2 : forall a b x y,
  occurs a (node2 b x y) = expr_eqb a (node2 b x y) || (occurs a x || occurs a y).
Proof. intros a [|o|k] x y; reflexivity. Qed.

Section Context.
  Variables a b : expr.
  Hypothesis Hdec : schema a <> None -> dec a b.
  Hypothesis Hsch : forall e k, schema e = Some k -> schema (subst a b e) = Some k.

  Lemma width_subst_ctx : forall e, schema e <> None -> width (subst a b e) = width e.
  Proof.
    intros e He. destruct (schema e) as [k|] eqn:E; [|congruence].
    unfold width. rewrite (Hsch _ _ E), E. reflexivity.
  Qed.

  Lemma ctx_dec : forall e, schema e <> None ->
    decle e (subst a b e) /\ (occurs a e = true -> dec e (subst a b e)).
  Proof.
    apply (subst_compat a b (fun e e' => schema e <> None ->
             decle e e' /\ (occurs a e = true -> dec e e'))).
    - intros Ha. pose proof (Hdec Ha) as D. split; [unfold dec, decle in *; lia|intros _; exact D].
    - intros id P E _. rewrite occurs_src, E. split; [unfold decle; lia|discriminate].
    - intros u e E IH He. rewrite occurs_node1, E. cbn [orb].
      assert (S1 : schema e <> None) by (intros Hn; apply He; rewrite schema_node1, Hn; reflexivity).
      destruct (IH S1) as [L1 D1]. pose proof (width_subst_ctx e S1) as W1.
      unfold dec, decle in *. rewrite !M1_node1, !M2_node1, !size_node1, W1.
      split; [|intros Ho; specialize (D1 Ho)]; destruct u; lia.
    - intros o x y E IHx IHy He. rewrite occurs_node2, E. cbn [orb].
      assert (S1 : schema x <> None) by (intros Hn; apply He; rewrite schema_node2, Hn; reflexivity).
      assert (S2 : schema y <> None).
      { intros Hn. apply He. rewrite schema_node2, Hn. destruct (schema x); reflexivity. }
      destruct (IHx S1) as [L1 D1]. destruct (IHy S2) as [L2 D2].
      pose proof (width_subst_ctx x S1) as W1. pose proof (width_subst_ctx y S2) as W2.
      unfold dec, decle in *. rewrite !M1_node2, !M2_node2, !size_node2, W1, W2.
      split; [lia|]. intros Ho. apply orb_true_iff in Ho.
      destruct Ho as [Ho|Ho]; [specialize (D1 Ho)|specialize (D2 Ho)]; lia.
  Qed.
End Context.

Theorem step_in_context_decreases : forall a b e,
  rule_ok_strict a b = true -> occurs a e = true -> schema e <> None ->
  mu_lt (mu (subst a b e)) (mu e).
Proof.
  intros a b e H Ho He. apply dec_mu_lt.
  apply (ctx_dec a b); try assumption.
  - intros Ha. apply strict_dec; assumption.
  - apply step_in_context_schema. apply rule_ok_strict_ok. exact H.
Qed.

Lemma subst_no_occurrence : forall a b e, occurs a e = false -> subst a b e = e.
Proof.
  intros a b. induction e using expr_shape_ind; intros H.
  - rewrite occurs_src in H. rewrite subst_src, H. reflexivity.
  - rewrite occurs_node1 in H. apply orb_false_iff in H. destruct H as [E H].
    rewrite subst_node1, E, IHe by exact H. reflexivity.
  - rewrite occurs_node2 in H. apply orb_false_iff in H. destruct H as [E H].
    apply orb_false_iff in H. destruct H as [H1 H2].
    rewrite subst_node2, E, IHe1, IHe2 by assumption. reflexivity.
Qed.

Definition decreasing (p r : expr) : Prop :=
  rule_ok_strict p r = true /\ schema p <> None /\ mu_ltb (mu r) (mu p) = true.
(* each conjunct of [decreasing] on a concrete step, by evaluation *)
Ltac decr := split; [vm_compute; reflexivity|split; [vm_compute; discriminate|vm_compute; reflexivity]].

Example mu_s1 : decreasing (Proj (Proj T0 [0; 1]) [1]) (Proj T0 [1]).
Proof. decr. Qed.
Example mu_s1_values : mu (Proj (Proj T0 [0; 1]) [1]) = (4, 5) /\ mu (Proj T0 [1]) = (4, 2).
Proof. vm_compute. auto. Qed.
Example mu_s2 : decreasing (Proj (Fillna T0 0) [0; 1; 2]) (Fillna T0 0).
Proof. decr. Qed.
Example mu_s4 : decreasing (Proj (BinL BAdd T0 1) [1]) (Proj (BinL BAdd (Proj T0 [1; 2]) 1) [1]).
Proof. decr. Qed.
Example mu_s4_values :
  mu (Proj (BinL BAdd T0 1) [1]) = (8, 3) /\ mu (Proj (BinL BAdd (Proj T0 [1; 2]) 1) [1]) = (7, 6).
Proof. vm_compute. auto. Qed.
Example mu_s4_bare : decreasing (Proj (BinR BSub 1 T0) [1]) (BinR BSub 1 (Proj T0 [1])).
Proof. decr. Qed.
(* bare push with a mere reordering: M1 stays, the projection gets closer to the source *)
Example mu_s4_bare_permutation :
  decreasing (Proj (Un UNeg T0) [2; 1; 0]) (Un UNeg (Proj T0 [2; 1; 0]))
  /\ mu (Proj (Un UNeg T0) [2; 1; 0]) = (8, 3) /\ mu (Un UNeg (Proj T0 [2; 1; 0])) = (8, 2).
Proof. split; [decr|vm_compute; auto]. Qed.
Example mu_s4_series_bare : decreasing (ProjS (BinL BAdd T0 1) 1) (BinL BAdd (ProjS T0 1) 1).
Proof. decr. Qed.
Example mu_s5 : decreasing (Proj (Filter T0 pr0) [1]) (Proj (Filter (Proj T0 [1; 2]) pr0) [1]).
Proof. decr. Qed.
Example mu_s5_bare : decreasing (Proj (Filter T0 pr0) [1]) (Filter (Proj T0 [1]) pr0).
Proof. decr. Qed.
Example mu_s6 : decreasing (Proj (Bin BAdd T0 (Fillna T0 0)) [1])
                           (Proj (Bin BAdd (Proj T0 [1]) (Proj (Fillna T0 0) [1])) [1]).
Proof. decr. Qed.
Example mu_s7a : decreasing (Proj (Assign T0 5 v0) [0; 1]) (Proj T0 [0; 1]).
Proof. decr. Qed.
Example mu_s7b : decreasing (Proj (Assign T0 5 v0) [5; 1]) (Proj (Assign (Proj T0 [1]) 5 v0) [5; 1]).
Proof. decr. Qed.
(* replacing a column in place: the OUTPUT of the Assign keeps its width (2 -> 2 would not
   decrease an output-width measure); the width flowing INTO it shrinks *)
Example mu_s7b_inplace :
  decreasing (Proj (Assign (Src 0 [0; 1]) 1 v0) [1]) (Proj (Assign (Proj (Src 0 [0; 1]) []) 1 v0) [1]).
Proof. decr. Qed.
Example mu_s8 : decreasing (Proj (Rename T0 [(0, 7)]) [7; 2])
                           (Proj (Rename (Proj T0 [0; 2]) [(0, 7)]) [7; 2]).
Proof. decr. Qed.
Example mu_s9 : decreasing (Proj T0 [2; 0]) (Src 0 [2; 0]).
Proof. decr. Qed.
Example mu_s9_series : decreasing (ProjS T0 1) (SrcS 0 1).
Proof. decr. Qed.
Example mu_s9_partial : decreasing (Proj T0 [2]) (Proj (Src 0 [1; 2]) [2]).
Proof. decr. Qed.
Example mu_s10 : decreasing (Filter (Filter T0 p1) q1)
                            (Filter T0 (Bin BAnd p1 (BinL BGt (ProjS T0 0) 0))).
Proof. decr. Qed.
Example mu_s10_values :
  mu (Filter (Filter T0 p1) q1) = (37, 10)
  /\ mu (Filter T0 (Bin BAnd p1 (BinL BGt (ProjS T0 0) 0))) = (24, 4).
Proof. vm_compute. auto. Qed.
Example mu_s13 : decreasing (RLen (Proj (Filter T0 pr0) [1])) (RLen (Filter T0 pr0)).
Proof. decr. Qed.
Example mu_s13_series : decreasing (RLen (ProjS T0 1)) (RLen T0).
Proof. decr. Qed.
Example mu_in_context :
  let a := Proj (Fillna T0 0) [1] in let b := Fillna (Proj T0 [1]) 0 in
  let e := RSum (ProjS (Bin BAdd a a) 1) in
  rule_ok_strict a b = true /\ occurs a e = true /\ mu e = (21, 14) /\ mu (subst a b e) = (17, 12).
Proof. vm_compute. auto. Qed.

(* Degenerate instances of the proved schemas: accepted by [rule_ok] (they are semantically sound)
   but they change nothing useful and NO measure of this shape can decrease on them -- this is
   exactly what [rule_ok_strict] excludes (the real rules return None in these situations). *)
Example degenerate_s4_no_narrowing :   (* inserts a Proj node that only reorders: mu goes UP *)
  let p := Proj (BinL BAdd T0 1) [1] in let r := Proj (BinL BAdd (Proj T0 [2; 1; 0]) 1) [1] in
  rule_ok p r = true /\ rule_ok_strict p r = false /\ mu_ltb (mu p) (mu r) = true.
Proof. vm_compute. auto. Qed.
Example degenerate_s4_loops :   (* ... and it can be applied again and again: p -> r -> r' -> ... *)
  let r := Proj (BinL BAdd (Proj T0 [2; 1; 0]) 1) [1] in
  let r' := Proj (BinL BAdd (Proj (Proj T0 [2; 1; 0]) [0; 1; 2]) 1) [1] in
  rule_ok r r' = true /\ rule_ok_strict r r' = false.
Proof. vm_compute. auto. Qed.
Example degenerate_s6_no_narrowing :
  let p := Proj (Bin BAdd T0 (Fillna T0 0)) [1] in
  let r := Proj (Bin BAdd (Proj T0 [0; 1; 2]) (Fillna T0 0)) [1] in
  rule_ok p r = true /\ rule_ok_strict p r = false /\ mu_ltb (mu p) (mu r) = true.
Proof. vm_compute. auto. Qed.
Example degenerate_s9_reorder_only :   (* only permutes the columns read by the source: mu unchanged *)
  let p := Proj T0 [2] in let r := Proj (Src 0 [2; 1; 0]) [2] in
  rule_ok p r = true /\ rule_ok_strict p r = false /\ mu p = mu r /\ rule_ok r p = true.
Proof. vm_compute. auto. Qed.

Print Assumptions step_decreases.
Print Assumptions step_in_context_decreases.
Print Assumptions mu_lt_wf.

(* LocListProofs.v -- `df.loc[[l1, l2, ...]]` (LocList.v): the items are the touched partitions in increasing order, each
   with the requested labels part_of locates in it; the divisions reported are those MinMax.v derives from the smallest
   and largest label of each item. *)
From DX Require Import Base ListFacts Divisions DivisionsProofs Loc LocProofs LocList MinMax MinMaxProofs.
From Coq Require Import Sorted.

Definition labels_in_range (divs : list Z) (labels : list Z) : Prop :=
  forall v, In v labels -> (hd 0 divs <= v <= last divs 0)%Z.

Lemma min_list_in : forall l, l <> [] -> In (min_list l) l.
Proof. intros l H. apply (list_min_spec l H). Qed.

Lemma max_list_in : forall l, l <> [] -> In (max_list l) l.
Proof. intros l H. apply (list_max_spec l H). Qed.

Lemma min_list_le : forall l x, In x l -> (min_list l <= x)%Z.
Proof. intros l x H. apply list_min_spec; [intros ->; destruct H|exact H]. Qed.

Lemma max_list_ge : forall l x, In x l -> (x <= max_list l)%Z.
Proof. intros l x H. apply list_max_spec; [intros ->; destruct H|exact H]. Qed.

Lemma labels_of_In : forall divs labels p v,
  In v (labels_of divs labels p) <-> In v labels /\ part_of divs v = p.
Proof. intros. unfold labels_of. rewrite filter_In, Nat.eqb_eq. tauto. Qed.

Lemma loc_labels_In : forall p ls x, In x (loc_labels p ls) <-> In x ls /\ In x p.
Proof.
  intros p ls x. unfold loc_labels. rewrite in_flat_map. split.
  - intros (v & Hv & Hx). apply filter_In in Hx. destruct Hx as [Hx E].
    apply Z.eqb_eq in E. subst v. split; assumption.
  - intros [H1 H2]. exists x. split; [exact H1|]. apply filter_In. split; [exact H2|apply Z.eqb_refl].
Qed.

Lemma ll_items_spec : forall divs labels it,
  In it (ll_items divs labels) <->
  fst it < length divs - 1 /\ snd it = labels_of divs labels (fst it) /\ snd it <> [].
Proof.
  intros divs labels it. unfold ll_items. rewrite filter_In, in_map_iff. split.
  - intros [(p & E & Hp) Hf]. subst it. apply in_seq in Hp. simpl in *.
    repeat split; [lia|]. destruct (labels_of divs labels p); [discriminate Hf|discriminate].
  - intros (H1 & H2 & H3). split.
    + exists (fst it). split; [|apply in_seq; lia].
      destruct it as [p ls]. simpl in *. subst ls. reflexivity.
    + destruct (snd it); [congruence|reflexivity].
Qed.

Lemma ll_items_label : forall divs labels it v,
  In it (ll_items divs labels) -> In v (snd it) -> In v labels /\ part_of divs v = fst it.
Proof.
  intros divs labels it v Hit Hv. apply ll_items_spec in Hit. destruct Hit as (_ & E & _).
  rewrite E in Hv. apply labels_of_In in Hv. exact Hv.
Qed.

Lemma ss_map_seq : forall (A : Type) (R : A -> A -> Prop) (g : nat -> A),
  (forall i j, i < j -> R (g i) (g j)) -> forall n a, StronglySorted R (map g (seq a n)).
Proof.
  intros A R g Hg n. induction n as [|n IH]; intros a; simpl; constructor; [apply IH|].
  apply Forall_map, Forall_forall. intros p Hp. apply in_seq in Hp. apply Hg. lia.
Qed.

Lemma ss_filter : forall (A : Type) (R : A -> A -> Prop) (f : A -> bool) (l : list A),
  StronglySorted R l -> StronglySorted R (filter f l).
Proof.
  intros A R f l H. induction H as [|a l Hs IH Hf]; simpl; [constructor|].
  destruct (f a); [|exact IH].
  constructor; [exact IH|]. apply (incl_Forall (incl_filter f l)), Hf.
Qed.

Lemma ss_nth_adj : forall (A : Type) (R : A -> A -> Prop) (l : list A),
  StronglySorted R l -> forall k d, S k < length l -> R (nth k l d) (nth (S k) l d).
Proof.
  intros A R l H. induction H as [|a l Hs IH Hf]; intros k d Hk; simpl in Hk; [lia|].
  destruct k as [|k].
  - rewrite Forall_forall in Hf. apply Hf. simpl. apply nth_In. lia.
  - change (R (nth k l d) (nth (S k) l d)). apply IH. lia.
Qed.

(* the touched partitions are visited in strictly increasing order *)
Lemma ll_items_adj : forall divs labels k d,
  S k < length (ll_items divs labels) ->
  fst (nth k (ll_items divs labels) d) < fst (nth (S k) (ll_items divs labels) d).
Proof.
  intros divs labels k d. apply (@ss_nth_adj _ (fun a b => fst a < fst b)).
  unfold ll_items. apply ss_filter, ss_map_seq. intros i j Hij. exact Hij.
Qed.

Lemma ll_parts_length : forall divs parts labels,
  length (ll_parts divs parts labels) = length (ll_items divs labels).
Proof. intros. unfold ll_parts. apply map_length. Qed.

(* output partition i holds the rows of the i-th item's partition that carry one of the item's labels *)
Lemma ll_parts_In : forall divs parts labels i x,
  In x (nth i (ll_parts divs parts labels) []) <->
  i < length (ll_items divs labels) /\
  In x (snd (nth i (ll_items divs labels) (0, []))) /\ In x (nth (fst (nth i (ll_items divs labels) (0, []))) parts []).
Proof.
  intros divs parts labels i x. destruct (Nat.lt_ge_cases i (length (ll_items divs labels))) as [Hi|Hi].
  - unfold ll_parts. rewrite (nth_map_lt (0, []) _ (ll_items divs labels) i []) by exact Hi.
    rewrite loc_labels_In. tauto.
  - rewrite nth_overflow by (rewrite ll_parts_length; exact Hi). cbn [In]. lia.
Qed.

(* `truthful divs parts` is not needed, and the row carries a label of THAT item, from THAT partition *)
Lemma ll_rows_sound_gen : forall divs parts labels i x,
  In x (nth i (ll_parts divs parts labels) []) ->
  i < length (ll_items divs labels) /\
  In x labels /\
  part_of divs x = fst (nth i (ll_items divs labels) (0, [])) /\
  In x (nth (fst (nth i (ll_items divs labels) (0, []))) parts []).
Proof.
  intros divs parts labels i x H. apply ll_parts_In in H. destruct H as (Hi & Hl & Hp).
  destruct (ll_items_label divs labels _ x (nth_In _ _ Hi) Hl) as [H1 H2]. repeat split; assumption.
Qed.

Theorem ll_rows_sound : forall divs parts labels i x,
  truthful divs parts -> In x (nth i (ll_parts divs parts labels) []) -> In x labels /\ In x (concat parts).
Proof.
  intros divs parts labels i x _ H.
  destruct (ll_rows_sound_gen _ _ _ _ _ H) as (_ & Hl & _ & Hp).
  split; [exact Hl|]. set (j := fst (nth i (ll_items divs labels) (0, []))) in *.
  (* partition j exists, since it has a row *)
  assert (Hj : j < length parts).
  { apply Nat.nle_gt. intros Hj. rewrite nth_overflow in Hp by exact Hj. destruct Hp. }
  apply in_concat. exists (nth j parts []). split; [apply nth_In, Hj|exact Hp].
Qed.

(* `parts <> []` and `labels_in_range` are not needed (a row of a truthful frame is in range) *)
Theorem ll_rows_complete_gen : forall divs parts labels x,
  truthful divs parts ->
  In x labels -> In x (concat parts) -> In x (concat (ll_parts divs parts labels)).
Proof.
  intros divs parts labels x Ht Hl Hc.
  apply in_concat in Hc. destruct Hc as (p & Hp & Hx).
  destruct (In_nth parts p [] Hp) as (j & Hj & E). subst p.
  pose proof (row_part_of _ _ _ _ Ht Hj Hx) as Hpo.
  assert (Hv : In x (labels_of divs labels j)) by (apply labels_of_In; split; assumption).
  apply in_concat. exists (loc_labels (nth j parts []) (labels_of divs labels j)). split.
  - unfold ll_parts. apply in_map_iff. exists (j, labels_of divs labels j). split; [reflexivity|].
    apply ll_items_spec. simpl. apply truthful_length in Ht.
    repeat split; [lia|].
    intros E. rewrite E in Hv. inversion Hv.
  - apply loc_labels_In. split; assumption.
Qed.

Theorem ll_rows_complete : forall divs parts labels x,
  truthful divs parts -> parts <> [] -> labels_in_range divs labels ->
  In x labels -> In x (concat parts) -> In x (concat (ll_parts divs parts labels)).
Proof. intros divs parts labels x Ht _ _. apply ll_rows_complete_gen. exact Ht. Qed.

(* the (smallest, largest) label of an item: ll_divisions is the divisions vector MinMax.v derives from these statistics *)
Definition item_stat (it : nat * list Z) : mm := (min_list (snd it), max_list (snd it)).

Lemma ll_divisions_mm : forall divs labels,
  ll_divisions divs labels = mm_divisions (map item_stat (ll_items divs labels)).
Proof.
  intros. unfold ll_divisions, mm_divisions. rewrite map_map, !last_nth, map_length.
  change (0%Z, 0%Z) with (item_stat (0, [])). rewrite map_nth. reflexivity.
Qed.

(* holds for any divisions, partitions and labels: the rows returned for an item are labels of that item, and the labels
   of two different items are ordered like the partitions part_of locates them in -- the situation of
   MinMaxProofs.mm_truthful_sep *)
Theorem ll_truthful_gen : forall divs parts labels,
  truthful (ll_divisions divs labels) (ll_parts divs parts labels).
Proof.
  intros divs parts labels. rewrite ll_divisions_mm.
  set (items := ll_items divs labels).
  assert (Hnth : forall k, nth k (map item_stat items) (0%Z, 0%Z) = item_stat (nth k items (0, [])))
    by (intros k; apply (map_nth item_stat items (0, []))).
  assert (Hit : forall k, k < length items ->
            snd (nth k items (0, [])) <> [] /\
            forall v, In v (snd (nth k items (0, []))) -> part_of divs v = fst (nth k items (0, []))).
  { intros k Hk. pose proof (nth_In items (0, []) Hk) as Hin. split.
    - apply (ll_items_spec divs labels), Hin.
    - intros v Hv. apply (ll_items_label divs labels _ _ Hin Hv). }
  apply mm_truthful_sep.
  - split; [rewrite map_length, ll_parts_length; reflexivity|].
    intros i x _ Hx. apply ll_parts_In in Hx. destruct Hx as (_ & Hx & _). rewrite Hnth.
    split; [apply min_list_le|apply max_list_ge]; exact Hx.
  - intros i Hi. rewrite map_length in Hi. rewrite Hnth. apply min_list_le, max_list_in, Hit, Hi.
  - intros i Hi. rewrite map_length in Hi. rewrite !Hnth. cbn [item_stat fst snd].
    destruct (Hit i ltac:(lia)) as [Hn1 Hp1], (Hit (S i) Hi) as [Hn2 Hp2].
    apply (part_of_lt divs). rewrite (Hp1 _ (max_list_in _ Hn1)), (Hp2 _ (min_list_in _ Hn2)).
    apply ll_items_adj, Hi.
Qed.

Theorem ll_truthful : forall divs parts labels,
  truthful divs parts -> parts <> [] -> labels <> [] -> labels_in_range divs labels ->
  truthful (ll_divisions divs labels) (ll_parts divs parts labels).
Proof. intros divs parts labels _ _ _ _. apply ll_truthful_gen. Qed.

(* each output partition comes from the input partition its labels fall into (what `partitions[i]` of the result
   reads); that the output partitions follow increasing input partition numbers is ll_items_adj *)
Theorem ll_partition_source : forall divs parts labels i x,
  In x (nth i (ll_parts divs parts labels) []) ->
  In x (nth (part_of divs x) parts []).
Proof.
  intros divs parts labels i x H.
  destruct (ll_rows_sound_gen _ _ _ _ _ H) as (_ & _ & E & Hp). rewrite E. exact Hp.
Qed.

(* seed C06_b: first / last requested label *)
Theorem ll_unsorted_refuted : exists divs parts labels,
  truthful divs parts /\ labels_in_range divs labels /\
  ~ truthful (ll_divisions_unsorted divs labels) (ll_parts divs parts labels).
Proof.
  exists [0; 10; 20]%Z, [[3; 7]; [12]]%Z, [7; 3; 12]%Z.
  split; [apply truthfulb_spec; vm_compute; reflexivity|].
  split; [intros v Hv; simpl in *; lia|].
  apply truthfulb_false. vm_compute. reflexivity.
Qed.

(* the same request with the fixed formula *)
Example ll_sorted_witness :
  ll_divisions [0; 10; 20]%Z [7; 3; 12]%Z = [3; 12; 12]%Z /\
  ll_divisions_unsorted [0; 10; 20]%Z [7; 3; 12]%Z = [7; 12; 12]%Z /\
  ll_parts [0; 10; 20]%Z [[3; 7]; [12]]%Z [7; 3; 12]%Z = [[7; 3]; [12]]%Z.
Proof. vm_compute. repeat split. Qed.

Print Assumptions min_list_le.
Print Assumptions max_list_ge.
Print Assumptions min_list_in.
Print Assumptions max_list_in.
Print Assumptions ll_rows_sound.
Print Assumptions ll_rows_complete.
Print Assumptions ll_truthful.
Print Assumptions ll_truthful_gen.
Print Assumptions ll_partition_source.
Print Assumptions ll_unsorted_refuted.

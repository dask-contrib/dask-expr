(* PlanProofs.v -- soundness of the translation-validation checker [rule_ok] of Plan.v *)
From DX Require Import Base Plan.

Lemma memb_In : forall c l, memb c l = true <-> In c l.
Proof.
  induction l as [|x r IH]; simpl.
  - split; [discriminate|tauto].
  - rewrite orb_true_iff, IH, Nat.eqb_eq. split; intros [H|H]; auto.
Qed.

Lemma memb_false_notin : forall c l, memb c l = false <-> ~ In c l.
Proof.
  intros c l. rewrite <- memb_In. destruct (memb c l); split; congruence.
Qed.

Lemma nodupb_NoDup : forall l, nodupb l = true <-> NoDup l.
Proof.
  induction l as [|x r IH]; simpl.
  - split; [constructor|reflexivity].
  - rewrite andb_true_iff, negb_true_iff, IH, memb_false_notin.
    split.
    + intros [H1 H2]. constructor; assumption.
    + intros H. inversion H; subst. split; assumption.
Qed.

Lemma subsetb_incl : forall a b, subsetb a b = true <-> (forall c, In c a -> In c b).
Proof.
  intros a b. unfold subsetb. rewrite forallb_forall.
  split; intros H c Hc; apply memb_In, H, Hc.
Qed.

Lemma subsetb_trans : forall a b c, subsetb a b = true -> subsetb b c = true -> subsetb a c = true.
Proof.
  intros a b c H1 H2. rewrite subsetb_incl in *. auto.
Qed.

Lemma subsetb_refl : forall a, subsetb a a = true.
Proof. intros a. apply subsetb_incl. auto. Qed.

Lemma list_eqb_eq : forall a b, list_eqb a b = true <-> a = b.
Proof.
  induction a as [|x a IH]; destruct b as [|y b]; simpl; try (split; congruence).
  rewrite andb_true_iff, Nat.eqb_eq, IH. split.
  - intros [-> ->]. reflexivity.
  - intros H. inversion H. auto.
Qed.

Lemma list_eqb_refl : forall a, list_eqb a a = true.
Proof. intros a. apply list_eqb_eq. reflexivity. Qed.

Lemma assign_cols_In : forall cs k a, In a (assign_cols cs k) <-> a = k \/ In a cs.
Proof.
  intros cs k a. unfold assign_cols. destruct (memb k cs) eqn:E.
  - apply memb_In in E. split; [auto|]. intros [->|H]; auto.
  - rewrite in_app_iff. simpl. split; intros H; intuition.
Qed.

Lemma assign_cols_nodup : forall cs k, nodupb cs = true -> nodupb (assign_cols cs k) = true.
Proof.
  intros cs k H. unfold assign_cols. destruct (memb k cs) eqn:E; [exact H|].
  apply nodupb_NoDup. apply (NoDup_Add (Add_app k cs [])). rewrite app_nil_r.
  split; [apply nodupb_NoDup; exact H|apply memb_false_notin; exact E].
Qed.

Lemma remove_col_In : forall k c a, In a (remove_col k c) <-> In a c /\ a <> k.
Proof.
  intros k c a. unfold remove_col. rewrite filter_In, negb_true_iff, Nat.eqb_neq. tauto.
Qed.

Lemma NoDup_map_inj_on : forall (f : col -> col) xs, NoDup (map f xs) ->
  forall a b, In a xs -> In b xs -> f a = f b -> a = b.
Proof.
  induction xs as [|x xs IH]; intros Hnd a b Ha Hb Hab; [inversion Ha|].
  simpl in Hnd. inversion Hnd as [|? ? Hx Hnd']; subst.
  destruct Ha as [Ha|Ha]; destruct Hb as [Hb|Hb]; subst.
  - reflexivity.
  - exfalso. apply Hx. rewrite Hab. apply in_map. exact Hb.
  - exfalso. apply Hx. rewrite <- Hab. apply in_map. exact Ha.
  - apply IH; assumption.
Qed.

Lemma NoDup_map_sub : forall (f : col -> col) xs U, NoDup (map f xs) -> NoDup U -> incl U xs ->
  NoDup (map f U).
Proof.
  intros f xs U Hx. induction U as [|u U IH]; intros HU Hsub; [constructor|].
  inversion HU as [|? ? Hu HU']; subst. apply incl_cons_inv in Hsub. destruct Hsub as [Hux Hsub].
  simpl. constructor; [|apply IH; assumption].
  intros Hin. apply in_map_iff in Hin. destruct Hin as (u' & Hf & Hu').
  rewrite (NoDup_map_inj_on f xs Hx u' u) in Hu'; auto.
Qed.

Lemma bop_eqb_eq : forall a b, bop_eqb a b = true -> a = b.
Proof. destruct a, b; simpl; intros H; try discriminate; reflexivity. Qed.
Lemma uop_eqb_eq : forall a b, uop_eqb a b = true -> a = b.
Proof. destruct a, b; simpl; intros H; try discriminate; reflexivity. Qed.
Lemma map_eqb_eq : forall a b, map_eqb a b = true -> a = b.
Proof.
  induction a as [|[x1 y1] a IH]; destruct b as [|[x2 y2] b]; simpl; intros H; try discriminate.
  - reflexivity.
  - rewrite !andb_true_iff, !Nat.eqb_eq in H. destruct H as [[-> ->] H].
    rewrite (IH _ H). reflexivity.
Qed.

Lemma expr_eqb_eq : forall a b, expr_eqb a b = true -> a = b.
Proof.
  induction a; destruct b; simpl; intros H; try discriminate.
  all: rewrite ?andb_true_iff, ?Nat.eqb_eq, ?Z.eqb_eq, ?list_eqb_eq in H.
  all: decompose [and] H; subst; f_equal; auto using bop_eqb_eq, uop_eqb_eq, map_eqb_eq.
Qed.

Lemma pctx_eqb_eq : forall P P', pctx_eqb P P' = true -> P = P'.
Proof.
  intros [c|c] [c'|c'] H; simpl in H; try discriminate.
  - apply list_eqb_eq in H. subst. reflexivity.
  - apply Nat.eqb_eq in H. subst. reflexivity.
Qed.

Lemma bind_Some : forall A B (x : option A) (f : A -> option B) b,
  bind x f = Some b -> exists a, x = Some a /\ f a = Some b.
Proof. intros A B [a|] f b H; simpl in H; [eauto|discriminate]. Qed.

Lemma bind_assoc : forall A B C (x : option A) (f : A -> option B) (g : B -> option C),
  bind (bind x f) g = bind x (fun a => bind (f a) g).
Proof. intros A B C [a|] f g; reflexivity. Qed.

(* H : bind x f = Some b  becomes  Ha : x = Some a  and  H : f a = Some b *)
Tactic Notation "inv_bind" hyp(H) "as" ident(a) ident(Ha) :=
  apply bind_Some in H; destruct H as (a & Ha & H).

Lemma truthy_bcell : forall b, truthy (bcell b) = b.
Proof. intros [|]; reflexivity. Qed.

Lemma sel_map_self : forall (f : col -> cell) a c, In c a -> sel a (map f a) c = f c.
Proof.
  induction a as [|x a IH]; simpl; intros c Hc; [tauto|].
  destruct (Nat.eqb c x) eqn:E.
  - apply Nat.eqb_eq in E. subst. reflexivity.
  - apply IH. destruct Hc as [Hc|Hc]; [|exact Hc].
    subst. rewrite Nat.eqb_refl in E. discriminate.
Qed.

Lemma sel_map_inj : forall (f : col -> col) (g : col -> cell) cs u, NoDup (map f cs) -> In u cs ->
  sel (map f cs) (map g cs) (f u) = g u.
Proof.
  induction cs as [|x cs IH]; simpl; intros u Hnd Hu; [tauto|]. inversion Hnd as [|? ? Hx Hnd']; subst.
  destruct (Nat.eqb (f u) (f x)) eqn:E.
  - apply Nat.eqb_eq in E. destruct Hu as [->|Hu]; [reflexivity|].
    exfalso. apply Hx. rewrite <- E. apply in_map. exact Hu.
  - destruct Hu as [->|Hu]; [rewrite Nat.eqb_refl in E; discriminate|]. apply IH; assumption.
Qed.

Lemma sel_id : forall cs vals, NoDup cs -> length vals = length cs -> map (sel cs vals) cs = vals.
Proof.
  induction cs as [|x cs IH]; intros vals Hnd Hlen.
  - destruct vals; [reflexivity|discriminate].
  - destruct vals as [|v vals]; [discriminate|].
    inversion Hnd as [|? ? Hx Hnd']; subst.
    simpl. rewrite Nat.eqb_refl. f_equal.
    transitivity (map (sel cs vals) cs); [|apply IH; [exact Hnd'|simpl in Hlen; lia]].
    apply map_ext_in. intros c Hc.
    destruct (Nat.eqb c x) eqn:E; [|reflexivity].
    apply Nat.eqb_eq in E. subst. contradiction.
Qed.

Lemma map_map2 : forall A B C D (h : C -> D) (g : A -> B -> C) l1 l2,
  map h (map2 g l1 l2) = map2 (fun a b => h (g a b)) l1 l2.
Proof.
  induction l1 as [|a l1 IH]; destruct l2 as [|b l2]; simpl; try reflexivity.
  rewrite IH. reflexivity.
Qed.
Lemma map2_map_l : forall A A' B C (h : A -> A') (g : A' -> B -> C) l1 l2,
  map2 g (map h l1) l2 = map2 (fun a b => g (h a) b) l1 l2.
Proof.
  induction l1 as [|a l1 IH]; destruct l2 as [|b l2]; simpl; try reflexivity.
  rewrite IH. reflexivity.
Qed.
Lemma map2_map_r : forall A B B' C (h : B -> B') (g : A -> B' -> C) l1 l2,
  map2 g l1 (map h l2) = map2 (fun a b => g a (h b)) l1 l2.
Proof.
  induction l1 as [|a l1 IH]; destruct l2 as [|b l2]; simpl; try reflexivity.
  rewrite IH. reflexivity.
Qed.
Lemma map2_ext : forall A B C (f g : A -> B -> C) l1 l2,
  (forall a b, f a b = g a b) -> map2 f l1 l2 = map2 g l1 l2.
Proof.
  induction l1 as [|a l1 IH]; destruct l2 as [|b l2]; simpl; intros Hfg; try reflexivity.
  rewrite Hfg, IH by exact Hfg. reflexivity.
Qed.
Lemma map2_const_l : forall A B C (h : A -> C) (l1 : list A) (l2 : list B),
  length l1 = length l2 -> map2 (fun a _ => h a) l1 l2 = map h l1.
Proof.
  induction l1 as [|a l1 IH]; destruct l2 as [|b l2]; simpl; intros H; try discriminate;
    [reflexivity|]. rewrite IH by lia. reflexivity.
Qed.
Lemma map2_same : forall A B C D (f : B -> C -> D) (g1 : A -> B) (g2 : A -> C) l,
  map2 f (map g1 l) (map g2 l) = map (fun a => f (g1 a) (g2 a)) l.
Proof. induction l as [|a l IH]; simpl; [reflexivity|]. rewrite IH. reflexivity. Qed.

Lemma fmask_map : forall A B (f : A -> B) m l, fmask m (map f l) = map f (fmask m l).
Proof.
  induction m as [|b m IH]; intros l; [reflexivity|].
  destruct l as [|a l]; [reflexivity|]. simpl. destruct b; simpl; rewrite IH; reflexivity.
Qed.

Lemma fmask_map2 : forall A B C (f : A -> B -> C) m l1 l2,
  fmask m (map2 f l1 l2) = map2 f (fmask m l1) (fmask m l2).
Proof.
  induction m as [|b m IH]; intros l1 l2.
  - reflexivity.
  - destruct l1 as [|a l1]; [reflexivity|].
    destruct l2 as [|c l2].
    + simpl. destruct b, (fmask m l1); reflexivity.
    + simpl. destruct b; simpl; rewrite IH; reflexivity.
Qed.

Lemma fmask_nil_r : forall A m, @fmask A m [] = [].
Proof. intros A [|b m]; reflexivity. Qed.

Lemma fmask_fmask : forall A m1 m2 (l : list A),
  fmask (fmask m1 m2) (fmask m1 l) = fmask (map2 andb m1 m2) l.
Proof.
  induction m1 as [|b m1 IH]; intros m2 l; [reflexivity|].
  destruct m2 as [|c m2]; [reflexivity|].
  destruct l as [|a l].
  - simpl. rewrite fmask_nil_r. reflexivity.
  - destruct b; simpl.
    + destruct c; rewrite IH; reflexivity.
    + apply IH.
Qed.

Lemma fmask_Forall : forall A (P : A -> Prop) m l, Forall P l -> Forall P (fmask m l).
Proof.
  induction m as [|b m IH]; intros l H; [constructor|].
  destruct l as [|a l]; [constructor|]. inversion H; subst.
  simpl. destruct b; [constructor|]; auto.
Qed.

Lemma rids_map_fst : forall A B (g : nat * A -> nat * B) rows,
  (forall r, fst (g r) = fst r) -> rids (map g rows) = rids rows.
Proof.
  intros A B g rows Hg. unfold rids. rewrite map_map. apply map_ext. exact Hg.
Qed.

Lemma rids_map2_fst : forall A B C (g : nat * A -> nat * B -> nat * C) r1 r2,
  (forall x y, fst (g x y) = fst x) -> length r1 = length r2 -> rids (map2 g r1 r2) = rids r1.
Proof.
  intros A B C g. induction r1 as [|x r1 IH]; destruct r2 as [|y r2]; simpl; intros Hg H;
    try discriminate; [reflexivity|].
  rewrite Hg. f_equal. apply IH; [exact Hg|lia].
Qed.

Lemma rids_fmask : forall A m (rows : list (nat * A)), rids (fmask m rows) = fmask m (rids rows).
Proof. intros. unfold rids. symmetry. apply fmask_map. Qed.

Lemma rids_length : forall A B (r1 : list (nat * A)) (r2 : list (nat * B)),
  rids r1 = rids r2 -> length r1 = length r2.
Proof.
  intros A B r1 r2 H. unfold rids in H.
  rewrite <- (map_length (@fst nat A) r1), H. apply map_length.
Qed.

(* Every plan is a source read through a projection, a unary node or a binary node.  [den], [schema]
   and [subst] have one equation per shape, and inductions over plans go over the three shapes. *)

Definition opk_fun (k : opk) : cell -> cell :=
  match k with
  | OKBinL o z => fun c => bop_fun o c (Some z)
  | OKBinR o z => fun c => bop_fun o (Some z) c
  | OKUn u => uop_fun u
  | OKFill z => fillna_fun z
  end.

Inductive op1 :=
| U_p (P : pctx) | U_map (k : opk) | U_rename (m : list (col * col)) | U_sum | U_count | U_len.
Inductive op2 := B_filter | B_bin (o : bop) | B_assign (k : col).

Definition src (id : nat) (P : pctx) : expr :=
  match P with PProj cs => Src id cs | PProjS c => SrcS id c end.
Definition node1 (u : op1) (e : expr) : expr :=
  match u with
  | U_p P => pbuild P e
  | U_map k => fbuild (FOp k) e
  | U_rename m => Rename e m
  | U_sum => RSum e | U_count => RCount e | U_len => RLen e
  end.
Definition node2 (b : op2) (x y : expr) : expr :=
  match b with B_filter => Filter x y | B_bin o => Bin o x y | B_assign k => Assign x k y end.

Definition o_P (P : pctx) : obj -> option obj :=
  match P with PProj c => o_proj c | PProjS c => o_projs c end.
Definition o_node1 (u : op1) : obj -> option obj :=
  match u with
  | U_p P => o_P P
  | U_map k => fun x => Some (o_map (opk_fun k) x)
  | U_rename m => o_rename m
  | U_sum => o_reduce sum_cells | U_count => o_reduce count_cells | U_len => o_len
  end.
Definition o_node2 (b : op2) : obj -> obj -> option obj :=
  match b with B_filter => o_filter | B_bin o => o_bin (bop_fun o) | B_assign k => o_assign k end.

Definition k_P (P : pctx) : kind -> option kind :=
  match P with PProj c => k_proj c | PProjS c => k_projs c end.
Definition k_node1 (u : op1) : kind -> option kind :=
  match u with
  | U_p P => k_P P
  | U_map _ => @Some kind
  | U_rename m => k_rename m
  | U_sum | U_count => k_reduce | U_len => k_len
  end.
Definition k_node2 (b : op2) : kind -> kind -> option kind :=
  match b with B_filter => k_filter | B_bin _ => k_bin | B_assign k => k_assign k end.

Lemma den_src : forall rho id P, den rho (src id P) = bind (table rho id) (o_P P).
Proof. intros rho id [c|c]; reflexivity. Qed.
Lemma den_node1 : forall rho u e, den rho (node1 u e) = bind (den rho e) (o_node1 u).
Proof. intros rho [[c|c]|[]|m| | |] e; reflexivity. Qed.
Lemma den_node2 : forall rho b x y,
  den rho (node2 b x y) = bind (den rho x) (fun X => bind (den rho y) (o_node2 b X)).
Proof. intros rho [|o|k] x y; reflexivity. Qed.

Lemma schema_node1 : forall u e, schema (node1 u e) = bind (schema e) (k_node1 u).
Proof. intros [[c|c]|[]|m| | |] e; simpl; try reflexivity; destruct (schema e); reflexivity. Qed.
Lemma schema_node2 : forall b x y,
  schema (node2 b x y) = bind (schema x) (fun X => bind (schema y) (k_node2 b X)).
Proof. intros [|o|k] x y; reflexivity. Qed.

Lemma subst_src : forall a b id P,
  subst a b (src id P) = if expr_eqb a (src id P) then b else src id P.
Proof. intros a b id [c|c]; reflexivity. Qed.
Lemma subst_node1 : forall a b u e,
  subst a b (node1 u e) = if expr_eqb a (node1 u e) then b else node1 u (subst a b e).
Proof. intros a b [[c|c]|[]|m| | |] e; reflexivity. Qed.
Lemma subst_node2 : forall a b o x y,
  subst a b (node2 o x y)
  = if expr_eqb a (node2 o x y) then b else node2 o (subst a b x) (subst a b y).
Proof. intros a b [|o|k] x y; reflexivity. Qed.

Lemma expr_shape_ind : forall Q : expr -> Prop,
  (forall id P, Q (src id P)) ->
  (forall u e, Q e -> Q (node1 u e)) ->
  (forall b x y, Q x -> Q y -> Q (node2 b x y)) ->
  forall e, Q e.
Proof.
  intros Q H0 H1 H2. induction e.
  - apply (H0 id (PProj cs)).
  - apply (H0 id (PProjS c)).
  - apply (H1 (U_p (PProj cs))). assumption.
  - apply (H1 (U_p (PProjS c))). assumption.
  - apply (H2 B_filter); assumption.
  - apply (H1 (U_map (OKBinL o z))). assumption.
  - apply (H1 (U_map (OKBinR o z))). assumption.
  - apply (H2 (B_bin o)); assumption.
  - apply (H1 (U_map (OKUn u))). assumption.
  - apply (H1 (U_map (OKFill z))). assumption.
  - apply (H2 (B_assign k)); assumption.
  - apply (H1 (U_rename m)). assumption.
  - apply (H1 U_sum). assumption.
  - apply (H1 U_count). assumption.
  - apply (H1 U_len). assumption.
Qed.

(* A relation that holds of (a, b) and passes from the operands of a node other than a to the node
   holds of (e, subst a b e): the only induction over plans that the facts about [subst] need. *)
Section SubstCompat.
  Variables (a b : expr) (R : expr -> expr -> Prop).
  Hypothesis Rab : R a b.
  Hypothesis R0 : forall id P, expr_eqb a (src id P) = false -> R (src id P) (src id P).
  Hypothesis R1 : forall u e, expr_eqb a (node1 u e) = false ->
    R e (subst a b e) -> R (node1 u e) (node1 u (subst a b e)).
  Hypothesis R2 : forall o x y, expr_eqb a (node2 o x y) = false ->
    R x (subst a b x) -> R y (subst a b y) -> R (node2 o x y) (node2 o (subst a b x) (subst a b y)).

  Lemma subst_compat : forall e, R e (subst a b e).
  Proof.
    induction e using expr_shape_ind;
      [rewrite subst_src|rewrite subst_node1|rewrite subst_node2];
      (destruct (expr_eqb a _) eqn:E; [apply expr_eqb_eq in E; subst a; exact Rab|]); auto.
  Qed.
End SubstCompat.

Definition wf (o : obj) : Prop :=
  match o with
  | OFrame cs rows => nodupb cs = true /\ Forall (fun r => length (snd r) = length cs) rows
  | _ => True
  end.

(* A well-formed frame is a column list and, for every row, an id and a function from columns to
   cells.  On this form [o_map], [o_bin] and [o_assign] act on the cell functions and a projection
   changes nothing but the column list: what is left of a rule that moves a projection past one of
   them is a fact about column lists. *)
Definition cframe (c : list col) (l : list (nat * (col -> cell))) : obj :=
  OFrame c (map (fun r => (fst r, map (snd r) c)) l).
Definition cells (cs : list col) (rows : list (nat * list cell)) : list (nat * (col -> cell)) :=
  map (fun r => (fst r, sel cs (snd r))) rows.

Lemma cframe_wf : forall c l, nodupb c = true -> wf (cframe c l).
Proof.
  intros c l Hn. split; [exact Hn|]. apply Forall_forall. intros r Hr.
  apply in_map_iff in Hr. destruct Hr as (r0 & <- & _). apply map_length.
Qed.

Lemma wf_as_cframe : forall cs rows, wf (OFrame cs rows) -> OFrame cs rows = cframe cs (cells cs rows).
Proof.
  intros cs rows [Hn Hf]. unfold cframe, cells. rewrite map_map. f_equal.
  rewrite <- (map_id rows) at 1. apply map_ext_in. intros [i vals] Hr. cbn [fst snd].
  rewrite sel_id; [reflexivity|apply nodupb_NoDup; exact Hn|].
  rewrite Forall_forall in Hf. apply (Hf _ Hr).
Qed.

Lemma o_proj_cells : forall c cs rows,
  o_proj c (OFrame cs rows) = if nodupb c && subsetb c cs then Some (cframe c (cells cs rows)) else None.
Proof. intros c cs rows. unfold cframe, cells. rewrite map_map. reflexivity. Qed.

Lemma o_proj_cframe : forall c cs l,
  o_proj c (cframe cs l) = if nodupb c && subsetb c cs then Some (cframe c l) else None.
Proof.
  intros c cs l. unfold cframe. cbn [o_proj]. destruct (nodupb c && subsetb c cs) eqn:E; [|reflexivity].
  apply andb_true_iff in E. destruct E as [_ Hs]. rewrite subsetb_incl in Hs.
  rewrite map_map. do 2 f_equal. apply map_ext. intros r. unfold proj_row. cbn [fst snd]. f_equal.
  apply map_ext_in. intros a Ha. apply sel_map_self. auto.
Qed.

Lemma o_projs_cframe : forall c cs l,
  o_projs c (cframe cs l) = if memb c cs then Some (OSeries (map (fun r => (fst r, snd r c)) l)) else None.
Proof.
  intros c cs l. unfold cframe. cbn [o_projs]. destruct (memb c cs) eqn:E; [|reflexivity].
  apply memb_In in E. rewrite map_map. do 2 f_equal. apply map_ext. intros r. cbn [fst snd]. f_equal.
  apply sel_map_self. exact E.
Qed.

Lemma o_map_cframe : forall f cs l,
  o_map f (cframe cs l) = cframe cs (map (fun r => (fst r, fun a => f (snd r a))) l).
Proof.
  intros f cs l. unfold cframe. cbn [o_map]. rewrite !map_map. f_equal.
  apply map_ext. intros r. cbn [fst snd]. rewrite map_map. reflexivity.
Qed.

Lemma o_bin_cframe : forall f c1 c2 l1 l2,
  o_bin f (cframe c1 l1) (cframe c2 l2)
  = if list_eqb c1 c2 && list_eqb (rids l1) (rids l2)
    then Some (cframe c1 (map2 (fun x y => (fst x, fun a => f (snd x a) (snd y a))) l1 l2))
    else None.
Proof.
  intros f c1 c2 l1 l2. unfold cframe. cbn [o_bin]. rewrite !rids_map_fst by reflexivity.
  destruct (list_eqb c1 c2) eqn:E; [apply list_eqb_eq in E; subst c2|reflexivity].
  destruct (list_eqb (rids l1) (rids l2)); [|reflexivity]. cbn [andb].
  rewrite map2_map_l, map2_map_r, map_map2. do 2 f_equal. apply map2_ext. intros x y. cbn [fst snd].
  rewrite map2_same. reflexivity.
Qed.

Lemma assign_row_map : forall cs k (g : col -> cell) v,
  assign_row cs k (map g cs) v = map (fun a => if Nat.eqb a k then v else g a) (assign_cols cs k).
Proof.
  intros cs k g v. unfold assign_row, assign_cols. destruct (memb k cs) eqn:E.
  - clear E. induction cs as [|x cs IH]; simpl; [reflexivity|rewrite IH; reflexivity].
  - apply memb_false_notin in E. rewrite map_app. simpl. rewrite Nat.eqb_refl. f_equal.
    apply map_ext_in. intros a Ha. destruct (Nat.eqb a k) eqn:E2; [|reflexivity].
    apply Nat.eqb_eq in E2. subst. contradiction.
Qed.

Lemma o_assign_cframe : forall k cs l vs,
  o_assign k (cframe cs l) (OSeries vs)
  = if list_eqb (rids l) (rids vs)
    then Some (cframe (assign_cols cs k)
                 (map2 (fun r x => (fst r, fun a => if Nat.eqb a k then snd x else snd r a)) l vs))
    else None.
Proof.
  intros k cs l vs. unfold cframe. cbn [o_assign]. rewrite rids_map_fst by reflexivity.
  destruct (list_eqb (rids l) (rids vs)); [|reflexivity].
  rewrite map2_map_l, map_map2. do 2 f_equal. apply map2_ext. intros r x. cbn [fst snd].
  rewrite assign_row_map. reflexivity.
Qed.

Lemma proj_proj : forall a c cs rows,
  bind (o_proj a (OFrame cs rows)) (o_proj c)
  = if nodupb a && subsetb a cs && subsetb c a then o_proj c (OFrame cs rows) else None.
Proof.
  intros a c cs rows. rewrite !o_proj_cells. destruct (nodupb a && subsetb a cs) eqn:E; [|reflexivity].
  apply andb_true_iff in E. destruct E as [_ Hs]. cbn [andb bind]. rewrite o_proj_cframe.
  destruct (subsetb c a) eqn:Hc; [|rewrite andb_false_r; reflexivity].
  rewrite (subsetb_trans _ _ _ Hc Hs). reflexivity.
Qed.

Lemma o_proj_wf : forall c o o', o_proj c o = Some o' -> wf o'.
Proof.
  intros c [cs rows| | |] o' H; try discriminate. rewrite o_proj_cells in H.
  destruct (nodupb c) eqn:Hn; [|discriminate]. destruct (subsetb c cs); [|discriminate].
  injection H as <-. apply cframe_wf. exact Hn.
Qed.

Lemma o_map_wf : forall f o, wf o -> wf (o_map f o).
Proof.
  intros f [cs rows| | |] H; try exact I.
  rewrite (wf_as_cframe _ _ H), o_map_cframe. apply cframe_wf, H.
Qed.

Lemma o_filter_wf : forall o p o', wf o -> o_filter o p = Some o' -> wf o'.
Proof.
  intros [cs rows|rows| |] [|ps| |] o' Hw H; simpl in H; try discriminate;
    destruct (list_eqb _ _); try discriminate; inversion H; subst; simpl; auto.
  destruct Hw as [Hn Hf]. split; [exact Hn|]. apply fmask_Forall. exact Hf.
Qed.

Lemma o_bin_wf : forall f a b o, wf a -> wf b -> o_bin f a b = Some o -> wf o.
Proof.
  intros f [cs1 r1|r1|c1|] [cs2 r2|r2|c2|] o Ha Hb H; try discriminate;
    try (injection H as <-; exact I).
  - rewrite (wf_as_cframe _ _ Ha), (wf_as_cframe _ _ Hb), o_bin_cframe in H.
    destruct (list_eqb cs1 cs2 && _); [|discriminate]. injection H as <-. apply cframe_wf, Ha.
  - injection H as <-. apply (o_map_wf _ (OFrame cs1 r1)). exact Ha.
  - simpl in H. destruct (list_eqb _ _); [|discriminate]. injection H as <-. exact I.
  - injection H as <-. apply (o_map_wf _ (OFrame cs2 r2)). exact Hb.
Qed.

Lemma o_assign_wf : forall k o v o', wf o -> o_assign k o v = Some o' -> wf o'.
Proof.
  intros k [cs rows| | |] [|vs| |] o' Hw H; try discriminate.
  rewrite (wf_as_cframe _ _ Hw), o_assign_cframe in H. destruct (list_eqb _ _); [|discriminate].
  injection H as <-. apply cframe_wf, assign_cols_nodup, Hw.
Qed.

Lemma o_rename_wf : forall m o o', wf o -> o_rename m o = Some o' -> wf o'.
Proof.
  intros m [cs rows| | |] o' Hw H; simpl in H; try discriminate.
  destruct (nodupb (map (ren m) cs)) eqn:E; [|discriminate]. inversion H; subst.
  destruct Hw as [_ Hf]. split; [exact E|]. rewrite map_length. exact Hf.
Qed.

Lemma table_wf : forall rho id o, table rho id = Some o -> wf o.
Proof.
  intros rho id o H. unfold table in H. destruct (rho id) as [[tc rows]|]; [|discriminate].
  destruct (wf_tableb tc rows) eqn:E; [|discriminate]. inversion H; subst.
  unfold wf_tableb in E. apply andb_true_iff in E. destruct E as [E1 E2].
  split; [exact E1|]. apply Forall_forall. intros r Hr. rewrite forallb_forall in E2.
  apply Nat.eqb_eq. apply E2. exact Hr.
Qed.

Lemma o_P_wf : forall P o o', o_P P o = Some o' -> wf o'.
Proof.
  intros [c|c] o o' H; [eapply o_proj_wf; exact H|].
  destruct o as [cs rows| | |]; try discriminate. simpl in H.
  destruct (memb c cs); [|discriminate]. injection H as <-. exact I.
Qed.

Lemma o_node1_wf : forall u o o', wf o -> o_node1 u o = Some o' -> wf o'.
Proof.
  intros [P|k|m| | |] o o' Hw H; cbn [o_node1] in H.
  - eapply o_P_wf. exact H.
  - injection H as <-. apply o_map_wf. exact Hw.
  - eapply o_rename_wf; eassumption.
  - destruct o; try discriminate; injection H as <-; exact I.
  - destruct o; try discriminate; injection H as <-; exact I.
  - destruct o; try discriminate; injection H as <-; exact I.
Qed.

Lemma o_node2_wf : forall b x y o, wf x -> wf y -> o_node2 b x y = Some o -> wf o.
Proof.
  intros [|o|k] x y o' Hx Hy H; cbn [o_node2] in H.
  - eapply o_filter_wf; [|exact H]; assumption.
  - eapply o_bin_wf; [| |exact H]; assumption.
  - eapply o_assign_wf; [|exact H]; assumption.
Qed.

Theorem den_wf : forall rho e o, den rho e = Some o -> wf o.
Proof.
  intros rho. induction e using expr_shape_ind; intros o' H.
  - rewrite den_src in H. inv_bind H as T HT. eapply o_P_wf. exact H.
  - rewrite den_node1 in H. inv_bind H as X HX. eapply o_node1_wf; eauto.
  - rewrite den_node2 in H. inv_bind H as X HX. inv_bind H as Y HY. eapply o_node2_wf; [| |exact H]; eauto.
Qed.

(* [kind_of] is a homomorphism from the operations on objects to those on kinds *)
Lemma k_node1_sound : forall u o o', o_node1 u o = Some o' -> k_node1 u (kind_of o) = Some (kind_of o').
Proof.
  intros [[c|c]|k|m| | |] [cs rows|rows|z|cs vals] o' H; simpl in *; try discriminate;
    try (injection H as <-; reflexivity).
  - destruct (nodupb c && subsetb c cs); [injection H as <-; reflexivity|discriminate].
  - destruct (memb c cs); [injection H as <-; reflexivity|discriminate].
  - destruct (nodupb (map (ren m) cs)); [injection H as <-; reflexivity|discriminate].
Qed.

Lemma k_node2_sound : forall b x y o, o_node2 b x y = Some o -> k_node2 b (kind_of x) (kind_of y) = Some (kind_of o).
Proof.
  intros [|f|k] [cs1 r1|r1|c1|cs1 v1] [cs2 r2|r2|c2|cs2 v2] o H; simpl in *; try discriminate;
    try (injection H as <-; reflexivity);
    try (destruct (list_eqb (rids r1) (rids r2)); [injection H as <-; reflexivity|discriminate]).
  destruct (list_eqb cs1 cs2); [|discriminate].
  destruct (list_eqb (rids r1) (rids r2)); [injection H as <-; reflexivity|discriminate].
Qed.

Lemma table_frame : forall rho id o, table rho id = Some o -> exists tc rows, o = OFrame tc rows.
Proof.
  intros rho id o H. unfold table in H. destruct (rho id) as [[tc rows]|]; [|discriminate].
  destruct (wf_tableb tc rows); [|discriminate]. inversion H; subst. eauto.
Qed.

Theorem schema_sound : forall rho e o, den rho e = Some o -> schema e = Some (kind_of o).
Proof.
  intros rho. induction e using expr_shape_ind; intros o' H.
  - rewrite den_src in H. inv_bind H as T HT. destruct (table_frame _ _ _ HT) as (tc & rows & ->).
    destruct P as [cs|c]; simpl in *.
    + destruct (nodupb cs); [|discriminate]. destruct (subsetb cs tc); [|discriminate].
      injection H as <-. reflexivity.
    + destruct (memb c tc); [injection H as <-; reflexivity|discriminate].
  - rewrite den_node1 in H. inv_bind H as X HX. rewrite schema_node1, (IHe _ HX). apply k_node1_sound. exact H.
  - rewrite den_node2 in H. inv_bind H as X HX. inv_bind H as Y HY.
    rewrite schema_node2, (IHe1 _ HX), (IHe2 _ HY). apply k_node2_sound. exact H.
Qed.

Lemma den_kind : forall rho e o k, den rho e = Some o -> schema e = Some k -> k = kind_of o.
Proof. intros rho e o k Hd Hk. apply schema_sound in Hd. congruence. Qed.

Lemma den_frame_cols : forall rho x xs o, schema x = Some (KFrame xs) -> den rho x = Some o ->
  exists l, o = cframe xs l /\ nodupb xs = true.
Proof.
  intros rho x xs o Hs Hd. pose proof (den_wf _ _ _ Hd) as Hw. pose proof (den_kind _ _ _ _ Hd Hs) as Hk.
  destruct o as [cs rows| | |]; try discriminate. injection Hk as ->.
  rewrite (wf_as_cframe _ _ Hw). destruct Hw as [Hn _]. eauto.
Qed.

(* Completeness: a plan that has a schema evaluates on the tables without rows that have enough
   columns (every row-id check passes on them).  Hence a fact about the values of plans on all
   inputs carries over to their schemas, and nothing has to be proved twice. *)
Definition norows (o : obj) : Prop :=
  match o with OFrame _ rows => rows = [] | OSeries rows => rows = [] | _ => True end.
Definition erho (n : nat) : env := fun _ => Some (seq 0 n, []).

Lemma table_erho : forall n id, table (erho n) id = Some (OFrame (seq 0 n) []).
Proof.
  intros n id. unfold table, erho, wf_tableb.
  rewrite (proj2 (nodupb_NoDup (seq 0 n)) (seq_NoDup n 0)). reflexivity.
Qed.

Lemma o_node1_complete : forall u o k, k_node1 u (kind_of o) = Some k -> norows o ->
  exists o', o_node1 u o = Some o' /\ norows o'.
Proof.
  intros [[c|c]|f|m| | |] [cs rows|rows|z|cs vals] k H Hn; simpl in *; try discriminate; subst;
    try (eexists; split; reflexivity).
  - destruct (nodupb c && subsetb c cs); [eexists; split; reflexivity|discriminate].
  - destruct (memb c cs); [eexists; split; reflexivity|discriminate].
  - destruct (nodupb (map (ren m) cs)); [eexists; split; reflexivity|discriminate].
Qed.

Lemma o_node2_complete : forall b x y k, k_node2 b (kind_of x) (kind_of y) = Some k -> norows x -> norows y ->
  exists o', o_node2 b x y = Some o' /\ norows o'.
Proof.
  intros [|f|c] [cs1 r1|r1|c1|cs1 v1] [cs2 r2|r2|c2|cs2 v2] k H Hx Hy; simpl in *;
    try discriminate; subst; try (eexists; split; reflexivity).
  destruct (list_eqb cs1 cs2); [eexists; split; reflexivity|discriminate].
Qed.

Theorem schema_complete : forall e k, schema e = Some k ->
  exists N, forall n, N <= n -> exists o, den (erho n) e = Some o /\ norows o.
Proof.
  induction e using expr_shape_ind; intros k0 Hk.
  - exists (S (list_max (pcols P))). intros n Hn. rewrite den_src, table_erho. cbn [bind].
    assert (Hs : subsetb (pcols P) (seq 0 n) = true).
    { apply subsetb_incl. intros c Hc. apply in_seq.
      pose proof (proj1 (list_max_le (pcols P) _) (le_n _)) as Hm.
      rewrite Forall_forall in Hm. specialize (Hm _ Hc). lia. }
    destruct P as [cs|c]; simpl in *.
    + destruct (nodupb cs); [|discriminate]. rewrite Hs. eexists. split; reflexivity.
    + rewrite andb_true_r in Hs. rewrite Hs. eexists. split; reflexivity.
  - rewrite schema_node1 in Hk. inv_bind Hk as k1 Hk1. destruct (IHe _ Hk1) as (N & HN).
    exists N. intros n Hn. destruct (HN n Hn) as (o & Hd & Ho).
    rewrite den_node1, Hd. cbn [bind]. apply o_node1_complete with (k := k0); [|exact Ho].
    rewrite <- (den_kind _ _ _ _ Hd Hk1). exact Hk.
  - rewrite schema_node2 in Hk. inv_bind Hk as k1 Hk1. inv_bind Hk as k2 Hk2.
    destruct (IHe1 _ Hk1) as (N1 & HN1). destruct (IHe2 _ Hk2) as (N2 & HN2).
    exists (Nat.max N1 N2). intros n Hn.
    destruct (HN1 n) as (o1 & Hd1 & Ho1); [lia|]. destruct (HN2 n) as (o2 & Hd2 & Ho2); [lia|].
    rewrite den_node2, Hd1, Hd2. cbn [bind]. apply o_node2_complete with (k := k0); try assumption.
    rewrite <- (den_kind _ _ _ _ Hd1 Hk1), <- (den_kind _ _ _ _ Hd2 Hk2). exact Hk.
Qed.

Definition oref (A B : option obj) : Prop := forall o, A = Some o -> B = Some o.
Definition refines (a b : expr) : Prop := forall rho, oref (den rho a) (den rho b).

Theorem refines_spres : forall p r, refines p r -> forall k, schema p = Some k -> schema r = Some k.
Proof.
  intros p r H k Hk. destruct (schema_complete _ _ Hk) as (N & HN).
  destruct (HN N (le_n N)) as (o & Hd & _).
  rewrite (den_kind _ _ _ _ Hd Hk). apply (schema_sound (erho N)). apply H. exact Hd.
Qed.

Theorem subst_refines : forall a b, refines a b -> forall e, refines e (subst a b e).
Proof.
  intros a b Hab. apply subst_compat; [exact Hab|intros id P _ rho o H; exact H| |].
  - intros u e _ He rho o. rewrite !den_node1. intros H. inv_bind H as X HX. rewrite (He _ _ HX). exact H.
  - intros f x y _ Hx Hy rho o. rewrite !den_node2. intros H. inv_bind H as X HX. inv_bind H as Y HY.
    rewrite (Hx _ _ HX), (Hy _ _ HY). exact H.
Qed.

(* Congruence proper: replacing a by an extensionally equal b anywhere does not change the meaning. *)
Theorem den_congruence : forall a b, (forall rho, den rho a = den rho b) ->
  forall rho C, den rho (subst a b C) = den rho C.
Proof.
  intros a b Hab rho C. revert rho.
  apply (subst_compat a b (fun e e' => forall rho, den rho e' = den rho e)).
  - intros rho. symmetry. apply Hab.
  - reflexivity.
  - intros u e _ He rho. rewrite !den_node1, He. reflexivity.
  - intros f x y _ Hx Hy rho. rewrite !den_node2, Hx, Hy. reflexivity.
Qed.

Theorem schema_congruence : forall a b, schema a = schema b ->
  forall C, schema (subst a b C) = schema C.
Proof.
  intros a b Hab. apply (subst_compat a b (fun e e' => schema e' = schema e)).
  - symmetry. exact Hab.
  - reflexivity.
  - intros u e _ He. rewrite !schema_node1, He. reflexivity.
  - intros f x y _ Hx Hy. rewrite !schema_node2, Hx, Hy. reflexivity.
Qed.

(* A row-wise operator maps a collection to a collection with the same row ids, and commutes with
   dropping rows.  Filter squashing (S10) needs both facts, the length push-down (S13) the first. *)
Definition restrict (m : list bool) (o : obj) : obj :=
  match o with
  | OFrame cs rows => OFrame cs (fmask m rows)
  | OSeries rows => OSeries (fmask m rows)
  | _ => o
  end.
Definition orids (o : obj) : option (list nat) :=
  match o with
  | OFrame _ rows => Some (rids rows)
  | OSeries rows => Some (rids rows)
  | _ => None
  end.

Definition rowop (u : op1) : bool :=
  match u with U_sum | U_count | U_len => false | _ => true end.
(* the binary nodes whose result has the rows of the left operand x (of static kind k) *)
Definition rowop2 (b : op2) (k : option kind) : bool :=
  match b with B_filter => false | B_bin _ => is_coll k | B_assign _ => true end.

Lemma rowop2_orids : forall b X r, b <> B_filter -> orids X = Some r -> rowop2 b (Some (kind_of X)) = true.
Proof. intros [|o|k] [| | |] r Hb H; simpl in *; congruence. Qed.

Lemma o_node1_orids : forall u X Y, rowop u = true -> o_node1 u X = Some Y -> orids Y = orids X.
Proof.
  intros [[c|c]|k|m| | |] [cs rows|rows|z|cs vals] Y Hu H; simpl in *; try discriminate;
    try (injection H as <-; simpl; f_equal; apply rids_map_fst; reflexivity).
  - destruct (nodupb c && subsetb c cs); [|discriminate].
    injection H as <-. simpl. f_equal. apply rids_map_fst. reflexivity.
  - destruct (memb c cs); [|discriminate].
    injection H as <-. simpl. f_equal. apply rids_map_fst. reflexivity.
  - destruct (nodupb (map (ren m) cs)); [|discriminate]. injection H as <-. reflexivity.
Qed.

Lemma o_node1_restrict : forall u m X, rowop u = true ->
  o_node1 u (restrict m X) = option_map (restrict m) (o_node1 u X).
Proof.
  intros [[c|c]|k|mm| | |] m [cs rows|rows|z|cs vals] Hu; simpl in *; try discriminate;
    try reflexivity; try (rewrite fmask_map; reflexivity).
  - destruct (nodupb c && subsetb c cs); simpl; [rewrite fmask_map|]; reflexivity.
  - destruct (memb c cs); simpl; [rewrite fmask_map|]; reflexivity.
  - destruct (nodupb (map (ren mm) cs)); reflexivity.
Qed.

Lemma o_node2_orids : forall b X Y Z, rowop2 b (Some (kind_of X)) = true -> o_node2 b X Y = Some Z ->
  orids Z = orids X.
Proof.
  intros [|f|k] [cs1 r1|r1|c1|cs1 v1] [cs2 r2|r2|c2|cs2 v2] Z Hb H; simpl in *; try discriminate;
    try (injection H as <-; simpl; f_equal; apply rids_map_fst; reflexivity).
  (* left: frame/frame, series/series, assign; the result is a [map2] over operands whose row ids agree *)
  - destruct (list_eqb cs1 cs2); [cbn [andb] in H|discriminate].
    destruct (list_eqb (rids r1) (rids r2)) eqn:E; [|discriminate]. apply list_eqb_eq, rids_length in E.
    injection H as <-. simpl. f_equal. apply rids_map2_fst; [reflexivity|exact E].
  - destruct (list_eqb (rids r1) (rids r2)) eqn:E; [|discriminate]. apply list_eqb_eq, rids_length in E.
    injection H as <-. simpl. f_equal. apply rids_map2_fst; [reflexivity|exact E].
  - destruct (list_eqb (rids r1) (rids r2)) eqn:E; [|discriminate]. apply list_eqb_eq, rids_length in E.
    injection H as <-. simpl. f_equal. apply rids_map2_fst; [reflexivity|exact E].
Qed.

Lemma o_node2_restrict : forall b m r X Y, b <> B_filter -> orids X = Some r -> orids Y = Some r ->
  o_node2 b (restrict m X) (restrict m Y) = option_map (restrict m) (o_node2 b X Y).
Proof.
  intros [|f|k] m r [cs1 r1|r1|c1|cs1 v1] [cs2 r2|r2|c2|cs2 v2] Hb HX HY; simpl in *; try congruence.
  (* left: frame/frame, series/series, assign; the masked operands still have equal row ids *)
  all: injection HX as HX; injection HY as HY; rewrite !rids_fmask, HX, HY, !list_eqb_refl.
  - rewrite !andb_true_r. destruct (list_eqb cs1 cs2); simpl; [rewrite fmask_map2|]; reflexivity.
  - simpl. rewrite fmask_map2. reflexivity.
  - simpl. rewrite fmask_map2. reflexivity.
Qed.

Lemma o_filter_inv : forall X Pd T, o_filter X Pd = Some T ->
  exists ps, Pd = OSeries ps /\ orids X = Some (rids ps) /\ T = restrict (pmask ps) X.
Proof.
  intros [cs rows|rows| |] [|ps| |] T H; simpl in H; try discriminate;
    destruct (list_eqb (rids rows) (rids ps)) eqn:E; try discriminate;
    apply list_eqb_eq in E; inversion H; subst; exists ps; simpl; rewrite E; auto.
Qed.

Lemma o_filter_intro : forall X ps, orids X = Some (rids ps) ->
  o_filter X (OSeries ps) = Some (restrict (pmask ps) X).
Proof.
  intros [cs rows|rows| |] ps H; simpl in H; try discriminate; inversion H as [H'];
    simpl; rewrite H', list_eqb_refl; reflexivity.
Qed.

Lemma restrict_restrict : forall m1 m2 X,
  restrict (fmask m1 m2) (restrict m1 X) = restrict (map2 andb m1 m2) X.
Proof. intros m1 m2 [cs rows|rows| |]; simpl; try reflexivity; rewrite fmask_fmask; reflexivity. Qed.

Lemma filter_o_node1_comm : forall u X pd, rowop u = true ->
  bind (o_filter X pd) (o_node1 u) = bind (o_node1 u X) (fun Y => o_filter Y pd).
Proof.
  intros u X pd Hu. destruct (o_filter X pd) as [T|] eqn:F; cbn [bind].
  - apply o_filter_inv in F. destruct F as (ps & -> & RX & ->).
    rewrite o_node1_restrict by exact Hu. destruct (o_node1 u X) as [Y|] eqn:E; [|reflexivity].
    cbn [bind option_map]. rewrite o_filter_intro; [reflexivity|].
    rewrite (o_node1_orids _ _ _ Hu E). exact RX.
  - destruct (o_node1 u X) as [Y|] eqn:E; [|reflexivity]. cbn [bind].
    destruct (o_filter Y pd) eqn:G; [|reflexivity].
    apply o_filter_inv in G. destruct G as (ps & -> & RY & _).
    rewrite o_filter_intro in F; [discriminate|].
    rewrite <- (o_node1_orids _ _ _ Hu E). exact RY.
Qed.

Definition to_series (o : obj) : option obj :=
  match o with
  | OFrame _ rows => Some (OSeries (map (fun r => (fst r, hd None (snd r))) rows))
  | _ => None
  end.

Lemma o_projs_via : forall c o, o_projs c o = bind (o_proj [c] o) to_series.
Proof.
  intros c [cs rows| | |]; simpl; try reflexivity.
  rewrite andb_true_r. destruct (memb c cs); simpl; [|reflexivity]. rewrite map_map. reflexivity.
Qed.

Lemma den_pbuild : forall rho P e, den rho (pbuild P e) = bind (den rho e) (o_P P).
Proof. intros rho P e. apply (den_node1 rho (U_p P)). Qed.
Lemma schema_pbuild : forall P e, schema (pbuild P e) = bind (schema e) (k_P P).
Proof. intros P e. apply (schema_node1 (U_p P)). Qed.

Lemma pview_inv : forall e P e', pview e = Some (P, e') -> e = pbuild P e'.
Proof. intros e P e' H. destruct e; simpl in H; try discriminate; inversion H; subst; reflexivity. Qed.
Lemma pview_pbuild : forall P e, pview (pbuild P e) = Some (P, e).
Proof. intros [c|c] e; reflexivity. Qed.

(* a series projection is the one-column frame projection followed by [to_series]: a refinement shown
   under [o_proj (pcols P)] holds under either outer projection *)
Lemma P_lift : forall P (A B : option obj),
  oref (bind A (o_proj (pcols P))) (bind B (o_proj (pcols P))) ->
  oref (bind A (o_P P)) (bind B (o_P P)).
Proof.
  intros [c|c] A B H; [exact H|]. cbn [o_P pcols] in *. intros o Ho.
  assert (E : forall X, bind X (o_projs c) = bind (bind X (o_proj [c])) to_series).
  { intros [x|]; [apply o_projs_via|reflexivity]. }
  rewrite E in *. inv_bind Ho as Z HZ. rewrite (H _ HZ). exact Ho.
Qed.

Lemma s1_sem : forall a c (X : option obj),
  oref (bind (bind X (o_proj a)) (o_proj c)) (bind X (o_proj c)).
Proof.
  intros a c [[cs rows| | |]|] o H; try discriminate. cbn [bind] in *. rewrite proj_proj in H.
  destruct (nodupb a && subsetb a cs && subsetb c a); [exact H|discriminate].
Qed.

Lemma s1_ok_inv : forall p r, s1_ok p r = true ->
  exists P x a, p = pbuild P (Proj x a) /\ r = pbuild P x.
Proof.
  intros p r H. unfold s1_ok in H. destruct (pview p) as [[P []]|] eqn:Ev; try discriminate.
  apply pview_inv in Ev. apply expr_eqb_eq in H. eauto.
Qed.

Lemma s1_sound : forall p r, s1_ok p r = true -> refines p r.
Proof.
  intros p r H. apply s1_ok_inv in H. destruct H as (P & x & a & -> & ->).
  intros rho o. rewrite !den_pbuild. cbn [den]. apply P_lift. apply s1_sem.
Qed.

Lemma s2_ok_inv : forall p r, s2_ok p r = true ->
  exists xs, schema r = Some (KFrame xs) /\ p = Proj r xs.
Proof.
  intros p r H. unfold s2_ok in H. destruct p as [| |x cs| | | | | | | | | | | |]; try discriminate.
  destruct (schema x) as [[xs| | |]|] eqn:Es; try discriminate.
  apply andb_true_iff in H. destruct H as [H1 H2]. apply list_eqb_eq in H1. apply expr_eqb_eq in H2.
  subst. eauto.
Qed.

Lemma s2_sound : forall p r, s2_ok p r = true -> refines p r.
Proof.
  intros p r H. apply s2_ok_inv in H. destruct H as (xs & Es & ->).
  intros rho o H. cbn [den] in H. inv_bind H as X HX. rewrite HX.
  destruct (den_frame_cols _ _ _ _ Es HX) as (l & -> & Hn).
  rewrite o_proj_cframe, Hn, subsetb_refl in H. exact H.
Qed.

Lemma s9_ok_inv : forall p r, s9_ok p r = true ->
  exists P id cs, p = pbuild P (Src id cs) /\
    (r = src id P \/
     exists c', r = pbuild P (Src id c') /\ nodupb c' = true /\ subsetb c' cs = true
                /\ subsetb (pcols P) c' = true).
Proof.
  intros p r H. unfold s9_ok in H.
  destruct (pview p) as [[P [id cs| | | | | | | | | | | | | |]]|] eqn:Ev; try discriminate.
  apply pview_inv in Ev. exists P, id, cs. split; [exact Ev|].
  apply orb_true_iff in H. destruct H as [H|H].
  - left. destruct P; apply expr_eqb_eq in H; exact H.
  - right. destruct (pview r) as [[P' []]|]; try discriminate.
    rewrite !andb_true_iff in H. destruct H as [[[H1 H2] H3] H4]. apply expr_eqb_eq in H1. eauto 6.
Qed.

Lemma s9_sound : forall p r, s9_ok p r = true -> refines p r.
Proof.
  intros p r H. apply s9_ok_inv in H. destruct H as (P & id & cs & -> & Hr).
  intros rho o. rewrite den_pbuild. cbn [den]. destruct Hr as [->|(c' & -> & Hn & Hs & Hc)].
  - rewrite den_src. apply P_lift. apply s1_sem.
  - rewrite den_pbuild. cbn [den]. apply P_lift. intros o' Ho.
    destruct (table rho id) as [[tc rows| | |]|]; try discriminate. cbn [bind] in *.
    rewrite proj_proj in *. rewrite Hn, Hc, andb_true_r. cbn [andb].
    destruct (nodupb cs && subsetb cs tc && subsetb (pcols P) cs) eqn:E; [|discriminate].
    rewrite !andb_true_iff in E. destruct E as [[_ Hcs] _].
    rewrite (subsetb_trans _ _ _ Hs Hcs). exact Ho.
Qed.

Definition o_F (F : fctx) (rho : env) (X : obj) : option obj :=
  match F with
  | FOp k => Some (o_map (opk_fun k) X)
  | FFilter p => bind (den rho p) (fun pd => o_filter X pd)
  | FAssign k v => bind (den rho v) (fun vd => o_assign k X vd)
  | FRename m => o_rename m X
  end.
Lemma den_fbuild : forall rho F x, den rho (fbuild F x) = bind (den rho x) (o_F F rho).
Proof. intros rho [[]| | |] x; reflexivity. Qed.

Lemma fview_inv : forall e F x, fview e = Some (F, x) -> e = fbuild F x.
Proof. intros e F x H. destruct e; simpl in H; try discriminate; inversion H; subst; reflexivity. Qed.

Lemma comm_F : forall F rho P xs l, bare_allowed F = true ->
  bind (o_F F rho (cframe xs l)) (o_P P) = bind (o_P P (cframe xs l)) (o_F F rho).
Proof.
  intros [k|p|k v|m] rho P xs l Hb; try discriminate; unfold o_F.
  - cbn [bind]. rewrite o_map_cframe. destruct P as [c|c]; cbn [o_P].
    + rewrite !o_proj_cframe. destruct (nodupb c && subsetb c xs); [|reflexivity].
      cbn [bind]. rewrite o_map_cframe. reflexivity.
    + rewrite !o_projs_cframe. destruct (memb c xs); [|reflexivity].
      cbn [bind o_map]. rewrite !map_map. reflexivity.
  - destruct (den rho p) as [pd|]; cbn [bind].
    + apply (filter_o_node1_comm (U_p P)). reflexivity.
    + destruct (o_P P (cframe xs l)); reflexivity.
Qed.

(* Rename is the one operator that does not act on the cell functions (it has no inverse to
   compose them with): here the cells are compared, through [sel_map_inj]. *)
Lemma rename_push : forall m xs l c U Z, nodupb U = true -> subsetb U xs = true ->
  forallb (fun u => negb (memb (ren m u) c) || memb u U) xs = true ->
  bind (o_rename m (cframe xs l)) (o_proj c) = Some Z -> bind (o_rename m (cframe U l)) (o_proj c) = Some Z.
Proof.
  intros m xs l c U Z HnU HsU Hneed H. unfold cframe in *.
  cbn [o_rename] in *. destruct (nodupb (map (ren m) xs)) eqn:E; [|discriminate].
  cbn [bind o_proj] in H. destruct (nodupb c && subsetb c (map (ren m) xs)) eqn:Ec; [|discriminate].
  injection H as <-. apply andb_true_iff in Ec. destruct Ec as [Hn Hs].
  apply nodupb_NoDup in E. rewrite subsetb_incl in Hs, HsU. rewrite forallb_forall in Hneed.
  assert (Hpre : forall a, In a c -> exists u, In u xs /\ In u U /\ ren m u = a).
  { intros a Ha. specialize (Hs _ Ha). apply in_map_iff in Hs. destruct Hs as (u & <- & Hu).
    exists u. split; [exact Hu|]. split; [|reflexivity].
    specialize (Hneed _ Hu). apply orb_true_iff in Hneed. destruct Hneed as [Hq|Hq].
    - apply negb_true_iff in Hq. apply memb_false_notin in Hq. contradiction.
    - apply memb_In. exact Hq. }
  assert (HndU : NoDup (map (ren m) U)).
  { eapply NoDup_map_sub; eauto. apply nodupb_NoDup. exact HnU. }
  assert (HcU : subsetb c (map (ren m) U) = true).
  { apply subsetb_incl. intros a Ha. destruct (Hpre _ Ha) as (u & _ & HuU & <-). apply in_map. exact HuU. }
  rewrite (proj2 (nodupb_NoDup _) HndU). cbn [bind o_proj]. rewrite Hn, HcU. cbn [andb].
  rewrite !map_map. do 2 f_equal. apply map_ext. intros r. unfold proj_row. cbn [fst snd].
  f_equal. apply map_ext_in. intros a Ha. destruct (Hpre _ Ha) as (u & Hux & HuU & <-).
  rewrite !sel_map_inj by assumption. reflexivity.
Qed.

Lemma push_sem : forall F rho xs l c U Z,
  nodupb U = true -> subsetb U xs = true -> need F xs c U = true ->
  bind (o_F F rho (cframe xs l)) (o_proj c) = Some Z -> bind (o_F F rho (cframe U l)) (o_proj c) = Some Z.
Proof.
  intros F rho xs l c U Z HnU HsU Hneed H.
  assert (Hop : bare_allowed F = true -> subsetb c U = true ->
                bind (o_F F rho (cframe U l)) (o_proj c) = Some Z).
  { intros Hb Hc. rewrite (comm_F _ rho (PProj c)) in * by exact Hb. cbn [o_P] in *.
    rewrite o_proj_cframe in *. rewrite Hc. rewrite (subsetb_trans _ _ _ Hc HsU) in H. exact H. }
  destruct F as [k|p|k v|m]; [apply Hop; [reflexivity|exact Hneed]..| |].
  - unfold o_F in *. destruct (den rho v) as [[|vs| |]|]; try discriminate. cbn [bind] in *.
    rewrite o_assign_cframe in *. destruct (list_eqb (rids l) (rids vs)); [|discriminate].
    cbn [bind] in *. rewrite o_proj_cframe in *. destruct (nodupb c); [|discriminate].
    assert (HcU : subsetb c (assign_cols U k) = true).
    { cbn [need] in Hneed. rewrite subsetb_incl in Hneed |- *. intros a Ha. apply assign_cols_In.
      destruct (Nat.eq_dec a k) as [->|Hak]; [left; reflexivity|right].
      apply Hneed. apply remove_col_In. auto. }
    rewrite HcU. destruct (subsetb c (assign_cols xs k)); [exact H|discriminate].
  - apply rename_push with (xs := xs); assumption.
Qed.

Lemma push_sound : forall p r, push_rule p r <> 0 -> refines p r.
Proof.
  intros p r H. unfold push_rule in H.
  destruct (pview p) as [[P inner]|] eqn:Ev; [|congruence].
  destruct (fview inner) as [[F x]|] eqn:Ef; [|congruence].
  destruct (schema x) as [[xs| | |]|] eqn:Es; try congruence.
  apply pview_inv in Ev. apply fview_inv in Ef. subst p inner.
  match type of H with (if ?b then _ else _) <> 0 => destruct b eqn:Eb; [|congruence] end.
  clear H. intros rho o. rewrite den_pbuild, den_fbuild.
  destruct (den rho x) as [X|] eqn:Ex; [|discriminate].
  destruct (den_frame_cols _ _ _ _ Es Ex) as (l & -> & _). cbn [bind].
  (* the two variants without an inner projection *)
  assert (Hbare : bare_allowed F = true -> r = fbuild F (pbuild P x) ->
                  oref (bind (o_F F rho (cframe xs l)) (o_P P)) (den rho r)).
  { intros Hb ->. rewrite den_fbuild, den_pbuild, Ex. cbn [bind]. rewrite comm_F by exact Hb.
    intros Z HZ. exact HZ. }
  apply orb_true_iff in Eb. destruct Eb as [Eb|Eb];
    [apply orb_true_iff in Eb; destruct Eb as [Eb|Eb]|].
  - destruct (inner_U (strip_p r)) as [U|]; [|discriminate].
    rewrite !andb_true_iff in Eb. destruct Eb as [[[HnU HsU] Hneed] Hr]. apply expr_eqb_eq in Hr. subst r.
    rewrite den_pbuild, den_fbuild. cbn [den]. rewrite Ex. cbn [bind]. rewrite o_proj_cframe, HnU, HsU.
    cbn [andb bind]. apply (P_lift P (o_F F rho _) (o_F F rho _)). intros Z. apply push_sem; assumption.
  - destruct P as [c|c]; [|discriminate]. destruct (inner_U r) as [U|]; [|discriminate].
    rewrite !andb_true_iff in Eb. destruct Eb as [[[Hb _] HU] Hr].
    apply list_eqb_eq in HU. apply expr_eqb_eq in Hr. subst U. apply Hbare; assumption.
  - destruct P as [c|c]; [discriminate|]. apply andb_true_iff in Eb. destruct Eb as [Hb Hr].
    apply expr_eqb_eq in Hr. apply Hbare; assumption.
Qed.

Lemma s7a_ok_inv : forall p r, s7a_ok p r = true ->
  exists P x k v, p = pbuild P (Assign x k v) /\ r = pbuild P x /\ ~ In k (pcols P).
Proof.
  intros p r H. unfold s7a_ok in H. destruct (pview p) as [[P []]|] eqn:Ev; try discriminate.
  apply pview_inv in Ev. apply andb_true_iff in H. destruct H as [Hk Hr].
  apply negb_true_iff, memb_false_notin in Hk. apply expr_eqb_eq in Hr. eauto 8.
Qed.

Lemma s7a_sound : forall p r, s7a_ok p r = true -> refines p r.
Proof.
  intros p r H. apply s7a_ok_inv in H. destruct H as (P & x & k & v & -> & -> & Hk).
  intros rho o. rewrite !den_pbuild. cbn [den]. apply P_lift. intros Z HZ.
  destruct (den rho x) as [X|] eqn:Ex; [|discriminate]. cbn [bind] in *.
  pose proof (den_wf _ _ _ Ex) as Hw.
  destruct X as [xs rows| | |]; [|destruct (den rho v); discriminate..].
  destruct (den rho v) as [[|vs| |]|]; try discriminate. cbn [bind] in HZ.
  rewrite (wf_as_cframe _ _ Hw) in *. clear Hw. generalize dependent (cells xs rows). intros l Ex HZ.
  rewrite o_assign_cframe in HZ. destruct (list_eqb (rids l) (rids vs)) eqn:E; [|discriminate].
  apply list_eqb_eq, rids_length in E.
  cbn [bind] in HZ. rewrite o_proj_cframe in *. destruct (nodupb (pcols P)); [|discriminate].
  destruct (subsetb (pcols P) (assign_cols xs k)) eqn:Hs; [|discriminate]. cbn [andb] in *.
  assert (Hsx : subsetb (pcols P) xs = true).
  { rewrite subsetb_incl in Hs |- *. intros a Ha. specialize (Hs _ Ha).
    apply assign_cols_In in Hs. destruct Hs as [->|Hs]; [contradiction|exact Hs]. }
  rewrite Hsx.
  (* the cells of the selected columns are those of x *)
  rewrite <- HZ. unfold cframe. rewrite map_map2, <- (map2_const_l _ _ _ _ l vs E).
  do 2 f_equal. apply map2_ext. intros r y. cbn [fst snd]. f_equal. apply map_ext_in. intros a Ha.
  destruct (Nat.eqb a k) eqn:E0; [|reflexivity]. apply Nat.eqb_eq in E0. subst. contradiction.
Qed.

Lemma side_U_inv : forall orig new s, side_U orig new = Some s ->
  (s = None /\ new = orig) \/ (exists U, s = Some U /\ new = Proj orig U).
Proof.
  intros orig new s H. unfold side_U in H.
  destruct (expr_eqb new orig) eqn:E.
  - apply expr_eqb_eq in E. inversion H; subst. left. auto.
  - destruct new; try discriminate. destruct (expr_eqb new orig) eqn:E2; [|discriminate].
    apply expr_eqb_eq in E2. inversion H; subst. right. eauto.
Qed.

Lemma side_sem : forall rho a a' ca sa c la,
  side_U a a' = Some sa -> side_chk ca c sa = true -> subsetb c ca = true ->
  den rho a = Some (cframe ca la) ->
  den rho a' = Some (cframe (side_cols ca sa) la) /\ subsetb c (side_cols ca sa) = true.
Proof.
  intros rho a a' ca sa c la Hs Hc Hca Hd.
  apply side_U_inv in Hs. destruct Hs as [[-> ->]|(U & -> & ->)]; cbn [side_cols]; [auto|].
  cbn [side_chk] in Hc. apply andb_true_iff in Hc. destruct Hc as [Hc HcU].
  cbn [den]. rewrite Hd. cbn [bind]. rewrite o_proj_cframe, Hc. auto.
Qed.

Lemma s6_ok_inv : forall p r, s6_ok p r = true ->
  exists P o a b a' b' ca cb sa sb,
    p = pbuild P (Bin o a b) /\ r = pbuild P (Bin o a' b') /\
    schema a = Some (KFrame ca) /\ schema b = Some (KFrame cb) /\
    side_U a a' = Some sa /\ side_U b b' = Some sb /\
    side_chk ca (pcols P) sa = true /\ side_chk cb (pcols P) sb = true /\
    side_cols ca sa = side_cols cb sb.
Proof.
  intros p r H. unfold s6_ok in H.
  destruct (pview p) as [[P [| | | | | | |o a b| | | | | | |]]|] eqn:Ev; try discriminate.
  destruct (pview r) as [[P' [| | | | | | |o' a' b'| | | | | | |]]|] eqn:Ev'; try discriminate.
  apply pview_inv in Ev. apply pview_inv in Ev'.
  apply andb_true_iff in H. destruct H as [H0 H]. apply andb_true_iff in H0. destruct H0 as [HP Ho].
  apply pctx_eqb_eq in HP. apply bop_eqb_eq in Ho. subst P' o'.
  destruct (schema a) as [[ca| | |]|] eqn:Esa; try discriminate.
  destruct (schema b) as [[cb| | |]|] eqn:Esb; try discriminate.
  destruct (side_U a a') as [sa|] eqn:Ua; try discriminate.
  destruct (side_U b b') as [sb|] eqn:Ub; try discriminate.
  rewrite !andb_true_iff in H. destruct H as [[[_ Hca] Hcb] Heq]. apply list_eqb_eq in Heq.
  exists P, o, a, b, a', b', ca, cb, sa, sb. auto 10.
Qed.

Lemma s6_sound : forall p r, s6_ok p r = true -> refines p r.
Proof.
  intros p r H. apply s6_ok_inv in H.
  destruct H as (P & o & a & b & a' & b' & ca & cb & sa & sb
                 & -> & -> & Esa & Esb & Ua & Ub & Hca & Hcb & Heq).
  intros rho Z. rewrite !den_pbuild. cbn [den]. apply P_lift. clear Z. intros Z HZ.
  destruct (den rho a) as [A|] eqn:EA; [|discriminate].
  destruct (den rho b) as [B|] eqn:EB; [|discriminate].
  destruct (den_frame_cols _ _ _ _ Esa EA) as (la & -> & _).
  destruct (den_frame_cols _ _ _ _ Esb EB) as (lb & -> & _).
  cbn [bind] in HZ. rewrite o_bin_cframe in HZ.
  destruct (list_eqb ca cb) eqn:E1; [apply list_eqb_eq in E1; subst cb|discriminate].
  destruct (list_eqb (rids la) (rids lb)) eqn:E2; [|discriminate].
  cbn [andb bind] in HZ. rewrite o_proj_cframe in HZ.
  destruct (nodupb (pcols P)) eqn:Hn; [|discriminate].
  destruct (subsetb (pcols P) ca) eqn:Hs; [|discriminate].
  destruct (side_sem _ _ _ _ _ _ _ Ua Hca Hs EA) as [Da Sa].
  destruct (side_sem _ _ _ _ _ _ _ Ub Hcb Hs EB) as [Db _].
  rewrite Da, Db, <- Heq. cbn [bind]. rewrite o_bin_cframe, list_eqb_refl, E2. cbn [andb bind].
  rewrite o_proj_cframe, Hn, Sa. exact HZ.
Qed.

Lemma rowwise_src : forall t id P, expr_eqb t (src id P) = false -> rowwise t (src id P) = false.
Proof. intros t id [c|c] E; cbn [src] in *; cbn [rowwise]; rewrite E; reflexivity. Qed.
Lemma rowwise_node1 : forall t u q, expr_eqb t (node1 u q) = false -> rowwise t (node1 u q) = true ->
  rowop u = true /\ rowwise t q = true.
Proof. intros t [[c|c]|[]|m| | |] q E H; simpl in E, H; rewrite E in H; try discriminate; auto. Qed.
Lemma rowwise_node2 : forall t b x y, expr_eqb t (node2 b x y) = false -> rowwise t (node2 b x y) = true ->
  b <> B_filter /\ rowwise t x = true /\ rowwise t y = true.
Proof.
  intros t [|o|k] x y E H; simpl in E, H; rewrite E in H; try discriminate;
    apply andb_true_iff in H; (split; [discriminate|exact H]).
Qed.

Section Rowwise.
  Variables (rho : env) (t x : expr) (m : list bool) (X : obj) (r0 : list nat).
  Hypothesis Hx : den rho x = Some X.
  Hypothesis Ht : den rho t = Some (restrict m X).
  Hypothesis Hr : orids X = Some r0.

  (* every sub-plan of q built row-wise from t is, after replacing t by x, a collection with the
     rows of X; its value in q is that collection restricted to the mask *)
  Lemma rowwise_sim : forall q, rowwise t q = true -> forall o, den rho q = Some o ->
    exists o', den rho (subst t x q) = Some o' /\ o = restrict m o' /\ orids o' = Some r0.
  Proof.
    apply (subst_compat t x (fun q q' => rowwise t q = true -> forall o, den rho q = Some o ->
      exists o', den rho q' = Some o' /\ o = restrict m o' /\ orids o' = Some r0)).
    - intros _ o H. rewrite Ht in H. injection H as <-. eauto.
    - intros id P E Hrow. rewrite rowwise_src in Hrow by exact E. discriminate.
    - intros u q E IH Hrow o H. destruct (rowwise_node1 _ _ _ E Hrow) as [Hu Hq].
      rewrite den_node1 in H |- *. inv_bind H as Q HQ. destruct (IH Hq _ HQ) as (Q' & -> & -> & RQ).
      cbn [bind]. rewrite o_node1_restrict in H by exact Hu.
      destruct (o_node1 u Q') as [o'|] eqn:E1; [|discriminate]. injection H as <-.
      exists o'. rewrite (o_node1_orids _ _ _ Hu E1). auto.
    - intros b y z E IHy IHz Hrow o H. destruct (rowwise_node2 _ _ _ _ E Hrow) as (Hb & Hy & Hz).
      rewrite den_node2 in H |- *. inv_bind H as Y HY. inv_bind H as Z HZ.
      destruct (IHy Hy _ HY) as (Y' & -> & -> & RY). destruct (IHz Hz _ HZ) as (Z' & -> & -> & RZ).
      cbn [bind]. rewrite (o_node2_restrict _ _ _ _ _ Hb RY RZ) in H.
      destruct (o_node2 b Y' Z') as [o'|] eqn:E2; [|discriminate]. injection H as <-.
      exists o'. rewrite (o_node2_orids _ _ _ _ (rowop2_orids _ _ _ Hb RY) E2). auto.
  Qed.
End Rowwise.

Lemma s10_ok_inv : forall p r, s10_ok p r = true ->
  exists x p0 q, p = Filter (Filter x p0) q /\ rowwise (Filter x p0) q = true
                 /\ r = Filter x (Bin BAnd p0 (subst (Filter x p0) x q)).
Proof.
  intros p r H. unfold s10_ok in H.
  destruct p as [| | | |[| | | |x p0| | | | | | | | | |] q| | | | | | | | | |]; try discriminate.
  rewrite !andb_true_iff in H. destruct H as [[_ Hrow] Hres]. apply expr_eqb_eq in Hres. eauto 6.
Qed.

Lemma s10_sound : forall p r, s10_ok p r = true -> refines p r.
Proof.
  intros p0 r H. apply s10_ok_inv in H. destruct H as (x & p & q & -> & Hrow & ->).
  intros rho Z HZ. cbn [den] in HZ.
  inv_bind HZ as T HT. inv_bind HZ as Q HQ.
  pose proof HT as HT'. inv_bind HT' as X HX. inv_bind HT' as Pd HP.
  apply o_filter_inv in HT'. destruct HT' as (ps & -> & RX & ->).
  destruct (rowwise_sim rho (Filter x p) x (pmask ps) X (rids ps) HX HT RX q Hrow _ HQ)
    as (Q' & DQ & -> & RQ).
  apply o_filter_inv in HZ. destruct HZ as (qs & EQ & RT & ->).
  destruct Q' as [|qs'| |]; try discriminate. simpl in EQ. inversion EQ; subst qs. clear EQ.
  simpl in RQ. inversion RQ as [RQ'].
  cbn [den]. rewrite HX, HP, DQ. cbn [bind o_bin]. rewrite RQ', list_eqb_refl. cbn [bind].
  assert (E1 : pmask (fmask (pmask ps) qs') = fmask (pmask ps) (pmask qs')).
  { unfold pmask. rewrite fmask_map. reflexivity. }
  assert (E2 : pmask (map2 (fun x0 y : nat * cell => (fst x0, bop_fun BAnd (snd x0) (snd y))) ps qs')
               = map2 andb (pmask ps) (pmask qs')).
  { unfold pmask. rewrite map_map2, map2_map_l, map2_map_r.
    apply map2_ext. intros a b. cbn [snd bop_fun]. apply truthy_bcell. }
  rewrite o_filter_intro.
  - rewrite E1, E2, restrict_restrict. reflexivity.
  - rewrite RX. f_equal. symmetry. apply rids_map2_fst; [reflexivity|].
    apply rids_length. congruence.
Qed.

Lemma o_len_orids : forall X,
  o_len X = option_map (fun r => OScalar (Some (Z.of_nat (length r)))) (orids X).
Proof. intros [cs rows|rows| |]; simpl; unfold rids; rewrite ?map_length; reflexivity. Qed.

Lemma len_reach_src : forall t id P, len_reach t (src id P) = false.
Proof. intros t id [c|c]; reflexivity. Qed.
Lemma len_reach_node1 : forall t u e,
  len_reach t (node1 u e) = rowop u && (expr_eqb e t || len_reach t e).
Proof. intros t [[c|c]|[]|m| | |] e; reflexivity. Qed.
Lemma len_reach_node2 : forall t b x y,
  len_reach t (node2 b x y) = rowop2 b (schema x) && (expr_eqb x t || len_reach t x).
Proof. intros t [|o|k] x y; reflexivity. Qed.

(* [len_reach t e]: t is reached from e through row-wise nodes; so every transitive relation that
   holds between such a node and its (left) operand holds between e and t *)
Lemma len_reach_ind : forall R : expr -> expr -> Prop,
  (forall a b c, R a b -> R b c -> R a c) ->
  (forall u e, rowop u = true -> R (node1 u e) e) ->
  (forall b x y, rowop2 b (schema x) = true -> R (node2 b x y) x) ->
  forall t e, len_reach t e = true -> R e t.
Proof.
  intros R Rtrans R1 R2 t.
  assert (step : forall e x, R e x -> (len_reach t x = true -> R x t) ->
                             expr_eqb x t || len_reach t x = true -> R e t).
  { intros e x Hex IH H. apply orb_true_iff in H. destruct H as [H|H].
    - apply expr_eqb_eq in H. subst. exact Hex.
    - eapply Rtrans; [exact Hex|auto]. }
  induction e using expr_shape_ind; intros H.
  - rewrite len_reach_src in H. discriminate.
  - rewrite len_reach_node1 in H. apply andb_true_iff in H. destruct H as [Hu H].
    eapply step; [apply R1; exact Hu|exact IHe|exact H].
  - rewrite len_reach_node2 in H. apply andb_true_iff in H. destruct H as [Hb H].
    eapply step; [apply R2; exact Hb|exact IHe1|exact H].
Qed.

Lemma len_reach_sound : forall t e, len_reach t e = true -> refines (RLen e) (RLen t).
Proof.
  apply (len_reach_ind (fun e t => refines (RLen e) (RLen t))).
  - intros a b c H1 H2 rho o H. exact (H2 _ _ (H1 _ _ H)).
  - intros u e Hu rho o H. cbn [den] in *. rewrite den_node1, bind_assoc in H.
    inv_bind H as X HX. rewrite HX. cbn [bind].
    inv_bind H as Y HY. rewrite o_len_orids in *. rewrite <- (o_node1_orids _ _ _ Hu HY). exact H.
  - intros b x y Hb rho o H. cbn [den] in *. rewrite den_node2, bind_assoc in H.
    inv_bind H as X HX. rewrite HX. cbn [bind].
    rewrite bind_assoc in H. inv_bind H as Y HY. inv_bind H as Z HZ. rewrite o_len_orids in *.
    rewrite (schema_sound _ _ _ HX) in Hb. rewrite <- (o_node2_orids _ _ _ _ Hb HZ). exact H.
Qed.

Lemma s13_ok_inv : forall p r, s13_ok p r = true ->
  exists e t, p = RLen e /\ r = RLen t /\ len_reach t e = true.
Proof.
  intros p r H. unfold s13_ok in H. destruct p; try discriminate. destruct r; try discriminate. eauto.
Qed.

Lemma s13_sound : forall p r, s13_ok p r = true -> refines p r.
Proof.
  intros p r H. apply s13_ok_inv in H. destruct H as (e & t & -> & -> & H).
  apply len_reach_sound. exact H.
Qed.

Theorem rule_ok_sound : forall parent result, rule_ok parent result = true ->
  forall rho o, den rho parent = Some o -> den rho result = Some o.
Proof.
  intros p r H. unfold rule_ok, rule_name in H.
  destruct (s1_ok p r) eqn:E1; [apply s1_sound; exact E1|].
  destruct (s2_ok p r) eqn:E2; [apply s2_sound; exact E2|].
  destruct (push_rule p r) eqn:E3.
  - destruct (s6_ok p r) eqn:E6; [apply s6_sound; exact E6|].
    destruct (s7a_ok p r) eqn:E7; [apply s7a_sound; exact E7|].
    destruct (s9_ok p r) eqn:E9; [apply s9_sound; exact E9|].
    destruct (s10_ok p r) eqn:E10; [apply s10_sound; exact E10|].
    destruct (s13_ok p r) eqn:E13; [apply s13_sound; exact E13|].
    discriminate.
  - apply push_sound. congruence.
Qed.

Theorem rule_ok_schema : forall parent result, rule_ok parent result = true ->
  forall k, schema parent = Some k -> schema result = Some k.
Proof. intros p r H. apply refines_spres. exact (rule_ok_sound p r H). Qed.

Theorem step_in_context_sound : forall a b, rule_ok a b = true ->
  forall rho e o, den rho e = Some o -> den rho (subst a b e) = Some o.
Proof.
  intros a b H rho e o. apply subst_refines. intros rho' o'. apply rule_ok_sound. exact H.
Qed.

(* the static schema is preserved by a step applied anywhere inside a plan as well *)
Theorem step_in_context_schema : forall a b, rule_ok a b = true ->
  forall e k, schema e = Some k -> schema (subst a b e) = Some k.
Proof.
  intros a b H e. apply refines_spres. intros rho o. apply step_in_context_sound. exact H.
Qed.

Definition zc (x : Z) : cell := Some x.
Definition rho0 : env := fun id =>
  match id with
  | 0 => Some ([0; 1; 2],
               [(0, [zc 1; None; zc 3]); (1, [zc 4; zc 5; None]); (2, [zc (-7); zc 8; zc 9])])
  | 1 => Some ([0], [(0, [zc 10]); (1, [zc 5]); (2, [zc 3]); (3, [None])])
  | _ => None
  end.
Definition T0 := Src 0 [0; 1; 2].

(* an accepted step of schema n whose two sides evaluate to the same defined value *)
Definition accepted (n : nat) (p r : expr) : Prop :=
  rule_name p r = n /\ rule_ok p r = true /\
  exists v, den rho0 p = Some v /\ den rho0 r = Some v.
(* each conjunct of [accepted] on a concrete step, by evaluation *)
Ltac accept := split; [vm_compute; reflexivity|split; [vm_compute; reflexivity|
                 eexists; split; vm_compute; reflexivity]].

Example ex_s1 : accepted 1 (Proj (Proj T0 [0; 1]) [1]) (Proj T0 [1]).
Proof. accept. Qed.
Example ex_s1_value :
  den rho0 (Proj T0 [1]) = Some (OFrame [1] [(0, [None]); (1, [Some 5%Z]); (2, [Some 8%Z])]).
Proof. vm_compute. reflexivity. Qed.
Example ex_s1_series : accepted 1 (ProjS (Proj T0 [0; 1]) 1) (ProjS T0 1).
Proof. accept. Qed.
Example ex_s2 : accepted 2 (Proj (Fillna T0 0) [0; 1; 2]) (Fillna T0 0).
Proof. accept. Qed.
Example ex_s4 : accepted 4 (Proj (BinL BAdd T0 1) [1]) (Proj (BinL BAdd (Proj T0 [1; 2]) 1) [1]).
Proof. accept. Qed.
Example ex_s4_bare : accepted 4 (Proj (BinR BSub 1 T0) [1]) (BinR BSub 1 (Proj T0 [1])).
Proof. accept. Qed.
Example ex_s4_series : accepted 4 (ProjS (Un UIsNa T0) 1) (ProjS (Un UIsNa (Proj T0 [1])) 1).
Proof. accept. Qed.
Example ex_s4_series_bare : accepted 4 (ProjS (BinL BAdd T0 1) 1) (BinL BAdd (ProjS T0 1) 1).
Proof. accept. Qed.
Example ex_s5_series_bare : accepted 5 (ProjS (Filter T0 (BinL BGt (ProjS T0 0) 0)) 1)
                                       (Filter (ProjS T0 1) (BinL BGt (ProjS T0 0) 0)).
Proof. accept. Qed.
Example ex_s4_fillna : accepted 4 (Proj (Fillna T0 0) [2; 1]) (Proj (Fillna (Proj T0 [1; 2]) 0) [2; 1]).
Proof. accept. Qed.
Definition pr0 := BinL BGt (ProjS T0 0) 0.
Example ex_s5 : accepted 5 (Proj (Filter T0 pr0) [1]) (Proj (Filter (Proj T0 [1; 2]) pr0) [1]).
Proof. accept. Qed.
Example ex_s5_bare : accepted 5 (Proj (Filter T0 pr0) [1]) (Filter (Proj T0 [1]) pr0).
Proof. accept. Qed.
Example ex_s5_series : accepted 5 (ProjS (Filter T0 pr0) 1) (ProjS (Filter (Proj T0 [1]) pr0) 1).
Proof. accept. Qed.
Example ex_s6 : accepted 6 (Proj (Bin BAdd T0 (Fillna T0 0)) [1])
                           (Proj (Bin BAdd (Proj T0 [1]) (Proj (Fillna T0 0) [1])) [1]).
Proof. accept. Qed.
Example ex_s6_series : accepted 6 (ProjS (Bin BLt T0 (Fillna T0 0)) 2)
                                  (ProjS (Bin BLt (Proj T0 [2]) (Proj (Fillna T0 0) [2])) 2).
Proof. accept. Qed.
Definition v0 := BinL BMul (ProjS T0 1) 2.
Example ex_s7a : accepted 7 (Proj (Assign T0 5 v0) [0; 1]) (Proj T0 [0; 1]).
Proof. accept. Qed.
Example ex_s7b : accepted 7 (Proj (Assign T0 5 v0) [5; 1]) (Proj (Assign (Proj T0 [1]) 5 v0) [5; 1]).
Proof. accept. Qed.
Example ex_s7b_inplace :
  accepted 7 (Proj (Assign T0 1 v0) [1; 2]) (Proj (Assign (Proj T0 [2]) 1 v0) [1; 2]).
Proof. accept. Qed.
Example ex_s8 : accepted 8 (Proj (Rename T0 [(0, 7)]) [7; 2])
                           (Proj (Rename (Proj T0 [0; 2]) [(0, 7)]) [7; 2]).
Proof. accept. Qed.
Example ex_s9 : accepted 9 (Proj T0 [2; 0]) (Src 0 [2; 0]).
Proof. accept. Qed.
Example ex_s9_series : accepted 9 (ProjS T0 1) (SrcS 0 1).
Proof. accept. Qed.
Example ex_s9_partial : accepted 9 (Proj T0 [2]) (Proj (Src 0 [1; 2]) [2]).
Proof. accept. Qed.
Definition p1 := Un UNotNull (ProjS T0 1).
Definition q1 := BinL BGt (ProjS (Filter T0 p1) 0) 0.
Example ex_s10 : accepted 10 (Filter (Filter T0 p1) q1)
                             (Filter T0 (Bin BAnd p1 (BinL BGt (ProjS T0 0) 0))).
Proof. accept. Qed.
Example ex_s10_value :
  den rho0 (Filter (Filter T0 p1) q1) = Some (OFrame [0; 1; 2] [(1, [zc 4; zc 5; None])]).
Proof. vm_compute. reflexivity. Qed.
Example ex_s13 : accepted 13 (RLen (Proj (Filter T0 pr0) [1])) (RLen (Filter T0 pr0)).
Proof. accept. Qed.
Example ex_s13_value : den rho0 (RLen (Filter T0 pr0)) = Some (OScalar (zc 2)).
Proof. vm_compute. reflexivity. Qed.
Example ex_s13_series : accepted 13 (RLen (BinL BAdd (ProjS T0 1) 1)) (RLen (ProjS T0 1)).
Proof. accept. Qed.
Example ex_s13_assign : accepted 13 (RLen (Assign T0 5 v0)) (RLen T0).
Proof. accept. Qed.
Example ex_s13_bin : accepted 13 (RLen (Bin BAdd (ProjS T0 0) (ProjS T0 1))) (RLen (ProjS T0 0)).
Proof. accept. Qed.
Example ex_s13_multi : accepted 13 (RLen (Un UIsNa (Fillna (Rename (Proj T0 [0; 1]) [(0, 7)]) 0))) (RLen T0).
Proof. accept. Qed.
(* filters are not length preserving *)
Example reject_len_through_filter : rule_ok (RLen (Filter T0 pr0)) (RLen T0) = false
  /\ den rho0 (RLen (Filter T0 pr0)) = Some (OScalar (zc 2))
  /\ den rho0 (RLen T0) = Some (OScalar (zc 3)).
Proof. vm_compute. repeat split; reflexivity. Qed.
Example reject_len_through_filter_deep :
  rule_ok (RLen (Proj (Filter T0 pr0) [1])) (RLen T0) = false.
Proof. vm_compute. reflexivity. Qed.
(* a broadcast scalar on the left of Bin has no length: not accepted *)
Example reject_len_bin_scalar_left :
  rule_ok (RLen (Bin BAdd (RSum (ProjS T0 0)) (ProjS T0 1))) (RLen (RSum (ProjS T0 0))) = false.
Proof. vm_compute. reflexivity. Qed.
(* a step used inside a bigger plan *)
Example ex_in_context :
  let a := Proj (Fillna T0 0) [1] in let b := Fillna (Proj T0 [1]) 0 in
  let e := RSum (ProjS (Bin BAdd a a) 1) in
  rule_ok a b = true /\ subst a b e = RSum (ProjS (Bin BAdd b b) 1)
  /\ den rho0 e = Some (OScalar (Some 26%Z)) /\ den rho0 (subst a b e) = den rho0 e.
Proof. vm_compute. repeat split; reflexivity. Qed.

(* S10 needs its side conditions.  (1) A reduction in the outer predicate: the sum is taken over the
   filtered rows in the parent but over all rows after squashing. *)
Definition X1 := Src 1 [0].
Definition P1 := BinL BLt (ProjS X1 0) 8.
Definition Q1 := Bin BGe (BinL BMul (ProjS (Filter X1 P1) 0) 2) (RSum (ProjS (Filter X1 P1) 0)).
Example squash_with_reduction_refuted :
  let parent := Filter (Filter X1 P1) Q1 in
  let squashed := Filter X1 (Bin BAnd P1 (subst (Filter X1 P1) X1 Q1)) in
  den rho0 parent = Some (OFrame [0] [(1, [Some 5%Z])])
  /\ den rho0 squashed = Some (OFrame [0] [])
  /\ reduction_free (Filter X1 P1) Q1 = false
  /\ rule_ok parent squashed = false.
Proof. vm_compute. repeat split; reflexivity. Qed.

(* (2) [reduction_free] alone is NOT enough in this model (operands of Bin must have identical
   row-id lists): if the outer predicate also reads the rows through a structurally different but
   equivalent filter, the parent is well defined while the squashed plan is ill-formed.  Hence
   [rule_ok] additionally requires [rowwise (Filter x p) q]: every leaf of q is exactly Filter x p. *)
Definition P2 := BinR BGt 8 (ProjS X1 0).
Definition Q2 := Bin BAnd (BinL BGt (ProjS (Filter X1 P1) 0) 3) (BinL BGt (ProjS (Filter X1 P2) 0) 0).
Example squash_mixed_leaves_refuted :
  let parent := Filter (Filter X1 P1) Q2 in
  let squashed := Filter X1 (Bin BAnd P1 (subst (Filter X1 P1) X1 Q2)) in
  reduction_free (Filter X1 P1) Q2 = true
  /\ den rho0 parent = Some (OFrame [0] [(1, [Some 5%Z])])
  /\ den rho0 squashed = None
  /\ rowwise (Filter X1 P1) Q2 = false
  /\ rule_ok parent squashed = false.
Proof. vm_compute. repeat split; reflexivity. Qed.

(* unsound or out-of-scope steps are rejected *)
Example reject_assign_drop_of_used_key : rule_ok (Proj (Assign T0 5 v0) [5]) (Proj T0 [5]) = false.
Proof. vm_compute. reflexivity. Qed.
Example reject_push_missing_column :
  rule_ok (Proj (BinL BAdd T0 1) [1; 2]) (Proj (BinL BAdd (Proj T0 [1]) 1) [1; 2]) = false.
Proof. vm_compute. reflexivity. Qed.
Example reject_predicate_change (* simplifying the predicate is no schema of the checker *) :
  rule_ok (Filter T0 (Bin BOr pr0 pr0)) (Filter T0 pr0) = false.
Proof. vm_compute. reflexivity. Qed.
Example reject_filter_through_elemwise (* nor is moving a filter below an element-wise operator *) :
  rule_ok (Filter (Un UAbs T0) pr0) (Un UAbs (Filter T0 pr0)) = false.
Proof. vm_compute. reflexivity. Qed.
Example reject_rename_missing_preimage :
  rule_ok (Proj (Rename T0 [(0, 7)]) [7; 2]) (Proj (Rename (Proj T0 [2]) [(0, 7)]) [7; 2]) = false.
Proof. vm_compute. reflexivity. Qed.

Print Assumptions rule_ok_sound.
Print Assumptions rule_ok_schema.
Print Assumptions den_congruence.
Print Assumptions step_in_context_sound.
Print Assumptions step_in_context_schema.
Print Assumptions schema_sound.

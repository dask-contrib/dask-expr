(* FusionProofs.v -- C14: the task built by Fused._task computes exactly the partition the unfused
   root would. *)
From DX Require Import Base ListFacts Fusion.

Lemma gkey_eqb_spec : forall a b, reflect (a = b) (gkey_eqb a b).
Proof.
  intros a b. apply iff_reflect.
  destruct a, b; simpl; rewrite ?andb_true_iff, ?Nat.eqb_eq;
    (split; intros H; [inversion H; auto|try discriminate H; f_equal; tauto]).
Qed.
Lemma gkey_eqb_refl : forall a, gkey_eqb a a = true.
Proof. intros a. destruct (gkey_eqb_spec a a); congruence. Qed.
Lemma gkey_eqb_neq : forall a b, a <> b -> gkey_eqb a b = false.
Proof. intros a b H. destruct (gkey_eqb_spec a b); congruence. Qed.
Lemma gkey_eq_dec : forall a b : gkey, {a = b} + {a <> b}.
Proof. intros a b. destruct (gkey_eqb_spec a b); [left|right]; assumption. Qed.

Lemma lookup_dset_same : forall k v g, lookup k (dset k v g) = Some v.
Proof.
  induction g as [|[k' v'] r IH]; simpl.
  - rewrite gkey_eqb_refl; reflexivity.
  - destruct (gkey_eqb k k') eqn:E; simpl; [rewrite gkey_eqb_refl; reflexivity|rewrite E; exact IH].
Qed.
Lemma lookup_dset_other : forall k k' v g, k' <> k -> lookup k' (dset k v g) = lookup k' g.
Proof.
  induction g as [|[k0 v0] r IH]; simpl; intros Hn.
  - rewrite gkey_eqb_neq by exact Hn; reflexivity.
  - destruct (gkey_eqb_spec k k0) as [<-|_]; simpl.
    + rewrite gkey_eqb_neq by exact Hn; reflexivity.
    + rewrite IH by exact Hn; reflexivity.
Qed.

(* a dict has no duplicate keys: what makes "first binding" (lookup) and "last write" (dupdate) agree *)
Definition NoDupK (g : subgraph) : Prop := NoDup (map fst g).

Lemma lookup_none_iff : forall k g, lookup k g = None <-> ~ In k (map fst g).
Proof.
  induction g as [|[k' v'] r IH]; simpl; [tauto|].
  destruct (gkey_eqb_spec k k') as [->|Hne]; [|rewrite IH]; intuition congruence.
Qed.

Lemma dset_keys : forall k v g k', In k' (map fst (dset k v g)) <-> k' = k \/ In k' (map fst g).
Proof.
  induction g as [|[k0 v0] r IH]; simpl; intros k'; [intuition|].
  destruct (gkey_eqb_spec k k0) as [->|_]; simpl; [|rewrite IH]; intuition.
Qed.

Lemma dset_nodup : forall k v g, NoDupK g -> NoDupK (dset k v g).
Proof.
  unfold NoDupK. induction g as [|[k0 v0] r IH]; simpl; intros H.
  - constructor; [intros []|constructor].
  - destruct (gkey_eqb_spec k k0) as [->|Hne]; [exact H|]. inversion H; subst.
    simpl. constructor; [|apply IH; assumption]. rewrite dset_keys. intuition congruence.
Qed.

Lemma lookup_dupdate : forall k sub g, NoDupK sub ->
  lookup k (dupdate g sub) = match lookup k sub with Some v => Some v | None => lookup k g end.
Proof.
  unfold dupdate, NoDupK. induction sub as [|[k1 v1] r IH]; simpl; intros g H; [reflexivity|].
  inversion H; subst. rewrite IH by assumption.
  destruct (gkey_eqb_spec k k1) as [->|Hne].
  - rewrite (proj2 (lookup_none_iff k1 r)) by assumption. apply lookup_dset_same.
  - destruct (lookup k r); [reflexivity|]. apply lookup_dset_other. exact Hne.
Qed.

(* every dict the model builds starts from a singleton and is only written by dset *)
Lemma dupdate_nodup : forall sub g, NoDupK g -> NoDupK (dupdate g sub).
Proof. intros sub g. apply fold_left_inv. auto using dset_nodup. Qed.
Lemma add_deps_nodup : forall index ds j g, NoDupK g -> NoDupK (add_deps index ds j g).
Proof. induction ds as [|d r IH]; simpl; auto using dset_nodup. Qed.
Lemma add_member_nodup : forall index m g, NoDupK g -> NoDupK (add_member index m g).
Proof. intros index [n np nd args|n np grp ds] g H; cbn [add_member]; auto using dset_nodup, dupdate_nodup. Qed.
Lemma fused_graph_nodup : forall n grp ds index, NoDupK (fused_graph n grp ds index).
Proof.
  intros. apply add_deps_nodup, fold_left_inv; [auto using add_member_nodup|].
  repeat constructor. intros [].
Qed.

Section MemberInd.
  Variable P : member -> Prop.
  Hypothesis HP : forall n np nd args, P (MPlain n np nd args).
  Hypothesis HF : forall n np grp ds, Forall P grp -> P (MFused n np grp ds).
  Fixpoint member_ind' (m : member) : P m :=
    match m with
    | MPlain n np nd args => HP n np nd args
    | MFused n np grp ds =>
        HF n np grp ds ((fix go (l : list member) : Forall P l :=
                       match l with
                       | [] => Forall_nil _
                       | x :: r => Forall_cons _ (member_ind' x) (go r)
                       end) grp)
    end.
End MemberInd.

Lemma add_member_fused : forall index n np grp ds g,
  add_member index (MFused n np grp ds) g
  = dset (KPart n index) (TAlias (KName n)) (dupdate g (fused_graph n grp ds index)).
Proof. reflexivity. Qed.

(* graph.update(subgraph): the nested graph's bindings win *)
Lemma lookup_add_fused : forall index n np grp ds g k, k <> KPart n index ->
  lookup k (add_member index (MFused n np grp ds) g)
  = match lookup k (fused_graph n grp ds index) with Some v => Some v | None => lookup k g end.
Proof.
  intros. rewrite add_member_fused, lookup_dset_other by assumption.
  apply lookup_dupdate, fused_graph_nodup.
Qed.

Lemma add_deps_other : forall index k ds j g,
  (forall d, In d ds -> dep_key index d <> k) ->
  lookup k (add_deps index ds j g) = lookup k g.
Proof.
  induction ds as [|d r IH]; simpl; intros j g H; [reflexivity|].
  rewrite IH by (intros; apply H; right; assumption).
  apply lookup_dset_other. intros ->. apply (H d); [left; reflexivity|reflexivity].
Qed.

(* `for i, dep in enumerate(deps): graph[key(dep)] = "_i"`: a key is bound to the placeholder of
   some position that carries it (the last one) *)
Lemma add_deps_hit : forall index ds j g k, In k (map (dep_key index) ds) ->
  exists p, nth_error (map (dep_key index) ds) p = Some k /\
            lookup k (add_deps index ds j g) = Some (TAlias (KPlace (j + p))).
Proof.
  induction ds as [|d0 r IH]; intros j g k Hin; [destruct Hin|]. cbn [map add_deps].
  destruct (in_dec gkey_eq_dec k (map (dep_key index) r)) as [Hr|Hr].
  - destruct (IH (S j) (dset (dep_key index d0) (TAlias (KPlace j)) g) k Hr) as [p [Hn Hl]].
    exists (S p). rewrite Nat.add_succ_r. split; assumption.
  - destruct Hin as [<-|Hin]; [|contradiction]. exists 0. split; [reflexivity|].
    rewrite Nat.add_0_r, add_deps_other, lookup_dset_same; [reflexivity|].
    intros d Hd E. apply Hr. rewrite <- E. apply in_map. exact Hd.
Qed.

(* the expression a key belongs to; a placeholder belongs to none *)
Definition kn (k : gkey) : option nat :=
  match k with KName n => Some n | KPart n _ => Some n | KPlace _ => None end.

(* over-approximation of the keys add_member index m writes: the keys of m's own names (recursively) and the
   dependency keys its nested Fused members alias to placeholders *)
Definition touches (m : member) (k : gkey) : Prop :=
  match k with
  | KName n => In n (mnames m)
  | KPart n _ => In n (mnames m) \/ In n (adeps (flat_m m))
  | KPlace _ => False
  end.

Lemma names_app : forall a b, names (a ++ b) = names a ++ names b.
Proof. intros; unfold names; apply map_app. Qed.
Lemma adeps_app : forall a b, adeps (a ++ b) = adeps a ++ adeps b.
Proof. intros; unfold adeps; apply flat_map_app. Qed.

Lemma names_flat : forall grp, names (flat grp) = flat_map mnames grp.
Proof. induction grp as [|x r IH]; [reflexivity|]. simpl. rewrite <- IH. apply names_app. Qed.
Lemma adeps_flat : forall grp, adeps (flat grp) = flat_map (fun x => adeps (flat_m x)) grp.
Proof. induction grp as [|x r IH]; [reflexivity|]. simpl. rewrite <- IH. apply adeps_app. Qed.

Lemma mnames_sub : forall x group n, In x group -> In n (mnames x) -> In n (names (flat group)).
Proof. intros x group n Hx Hn. rewrite names_flat. apply in_flat_map. eauto. Qed.
Lemma adeps_sub : forall x group n, In x group -> In n (adeps (flat_m x)) -> In n (adeps (flat group)).
Proof. intros x group n Hx Hn. rewrite adeps_flat. apply in_flat_map. eauto. Qed.

Lemma touches_sub : forall n np grp ds x k, In x grp -> touches x k -> touches (MFused n np grp ds) k.
Proof.
  intros n np grp ds x k Hin Ht.
  pose proof (mnames_sub x grp) as Hn. pose proof (adeps_sub x grp) as Hd.
  destruct k; simpl in *; [auto| |exact Ht].
  destruct Ht; [auto|]. right. apply in_or_app. auto.
Qed.

Lemma fold_frame : forall index k grp,
  (forall x, In x grp -> forall g, lookup k (add_member index x g) = lookup k g) ->
  forall g, lookup k (fold_left (fun acc x => add_member index x acc) grp g) = lookup k g.
Proof.
  intros index k grp H g. apply fold_left_inv with (I := fun g' => lookup k g' = lookup k g); [|reflexivity].
  intros a x Hx <-. apply H, Hx.
Qed.

Lemma add_member_frame : forall index m g k, ~ touches m k -> lookup k (add_member index m g) = lookup k g.
Proof.
  intros index m. induction m as [n np nd args|n np grp ds IH] using member_ind'; intros g k Hnt.
  - apply lookup_dset_other. intros ->. apply Hnt. left. left. reflexivity.
  - rewrite Forall_forall in IH.
    (* the nested graph does not bind k: not as its own name, not by a member (IH), not as a dependency key *)
    assert (Hsub : lookup k (fused_graph n grp ds index) = None).
    { unfold fused_graph. rewrite add_deps_other, fold_frame.
      - simpl. rewrite gkey_eqb_neq; [reflexivity|]. intros ->. apply Hnt. left. reflexivity.
      - intros x Hx g0. apply IH; [exact Hx|]. intros Ht. apply Hnt. eapply touches_sub; eassumption.
      - intros d Hin Heq. apply Hnt. rewrite <- Heq. right. apply in_or_app. left. apply in_map. exact Hin. }
    rewrite lookup_add_fused, Hsub; [reflexivity|].
    intros ->. apply Hnt. left. left. reflexivity.
Qed.

Lemma fused_graph_root : forall self grp ds index, ~ In self (names (flat grp)) ->
  lookup (KName self) (fused_graph self grp ds index) = Some (TAlias (KPart (root_name grp) index)).
Proof.
  intros self grp ds index Hself. unfold fused_graph.
  rewrite add_deps_other by (intros d _; unfold dep_key; discriminate).
  rewrite fold_frame.
  - simpl. rewrite Nat.eqb_refl. reflexivity.
  - intros x Hx g. apply add_member_frame. intros Ht. apply Hself. eapply mnames_sub; eassumption.
Qed.

Lemma memb_In : forall n l, memb n l = true <-> In n l.
Proof. exact (existsb_eqb_In Nat.eqb Nat.eqb_eq). Qed.
Lemma negb_memb : forall n l, negb (memb n l) = true <-> ~ In n l.
Proof. intros. rewrite <- memb_In. destruct (memb n l); simpl; split; congruence. Qed.
Lemma nodupb_NoDup : forall l, nodupb l = true -> NoDup l.
Proof.
  induction l as [|x r IH]; simpl; intros H; [constructor|].
  apply andb_true_iff in H as [H1 H2]. constructor; [apply negb_memb; exact H1|apply IH; exact H2].
Qed.

(* the bindings Fused._task must leave in the dict for an entry of the flattened group: the task of a plain member,
   the two aliases (n, index) -> n -> (root, index) of a nested Fused *)
Definition holds (index : nat) (g : subgraph) (e : fentry) : Prop :=
  match e with
  | FP n np nd args => lookup (KPart n (bidx np index)) g = Some (plain_task n nd args (bidx np index))
  | FA n np r ds =>
      lookup (KPart n index) g = Some (TAlias (KName n)) /\ lookup (KName n) g = Some (TAlias (KPart r index))
  end.

Lemma holds_mono : forall index g g' e,
  (forall k v, kn k = Some (ename e) -> lookup k g = Some v -> lookup k g' = Some v) ->
  holds index g e -> holds index g' e.
Proof.
  intros index g g' [n np nd args|n np r ds] Hf; cbn [holds].
  - apply Hf. reflexivity.
  - intros [H1 H2]. split; apply Hf; trivial.
Qed.
Lemma holds_frame : forall index g g' e,
  (forall k, kn k = Some (ename e) -> lookup k g' = lookup k g) -> holds index g e -> holds index g' e.
Proof. intros index g g' e Hf. apply holds_mono. intros k v Hk. rewrite Hf by exact Hk. auto. Qed.

Lemma struct_ok_earlier : forall sibs earlier x, struct_ok sibs earlier x = true ->
  forall n, In n (adeps (flat_m x)) -> ~ In n earlier.
Proof.
  intros sibs earlier [n0 np nd args|n0 np grp ds] H n Hin; [destruct Hin|].
  cbn [struct_ok] in H. rewrite !andb_true_iff, !forallb_forall in H.
  apply negb_memb. apply H. exact Hin.
Qed.

Lemma not_touches : forall x k n, kn k = Some n -> ~ In n (mnames x) -> ~ In n (adeps (flat_m x)) -> ~ touches x k.
Proof.
  intros x [m|m i|j] n Hk H1 H2; simpl in *; try discriminate; inversion Hk; subst; tauto.
Qed.

Lemma forall_acc_snoc : forall A (f : list nat -> A -> bool) nm l x acc,
  forall_acc f nm acc (l ++ [x]) = forall_acc f nm acc l && f (acc ++ flat_map nm l) x.
Proof.
  induction l as [|y l IH]; intros x acc; simpl.
  - rewrite app_nil_r, andb_true_r. reflexivity.
  - rewrite IH, <- app_assoc, andb_assoc. reflexivity.
Qed.
Lemma flat_snoc : forall r x, flat (r ++ [x]) = flat r ++ flat_m x.
Proof. intros. unfold flat. rewrite flat_map_app. simpl. rewrite app_nil_r. reflexivity. Qed.

(* writing m, wherever and onto whatever dict, leaves the expected bindings of all entries of m: the statement proved
   by induction on the nesting (member_good), used at each level by level_holds *)
Definition MemberGood (index : nat) (m : member) : Prop :=
  forall sibs earlier g, struct_ok sibs earlier m = true -> NoDup (mnames m) ->
  forall e, In e (flat_m m) -> holds index (add_member index m g) e.

Lemma NoDup_app_inv : forall (A : Type) (a b : list A), NoDup (a ++ b) ->
  NoDup a /\ NoDup b /\ forall x, In x a -> ~ In x b.
Proof.
  induction a as [|y a IH]; simpl; intros b H; [repeat split; [constructor|exact H|intros x []]|].
  inversion H as [|? ? Hy H']; subst. destruct (IH b H') as [Ha [Hb Hd]].
  rewrite in_app_iff in Hy. repeat split; [constructor; tauto|exact Hb|].
  intros x [->|Hx]; [tauto|apply Hd; exact Hx].
Qed.

(* a member's bindings survive the members written after it: their names differ (NoDup), and the
   placeholders a later nested Fused brings in avoid every earlier name (struct_ok) *)
Lemma level_holds : forall index sibs grp, Forall (MemberGood index) grp ->
  forall_acc (struct_ok sibs) mnames [] grp = true -> NoDup (names (flat grp)) ->
  forall g0 e, In e (flat grp) ->
  holds index (fold_left (fun acc x => add_member index x acc) grp g0) e.
Proof.
  intros index sibs grp. induction grp as [|x r IH] using rev_ind; intros HF Hacc Hnd g0 e Hin; [destruct Hin|].
  apply Forall_app in HF as [HFr HFx]. apply Forall_inv in HFx.
  rewrite forall_acc_snoc in Hacc. apply andb_true_iff in Hacc as [Hr Hx].
  rewrite flat_snoc in Hin, Hnd. rewrite names_app in Hnd. apply NoDup_app_inv in Hnd as [Hndr [Hndx Hdisj]].
  rewrite fold_left_app. cbn [fold_left]. apply in_app_or in Hin as [Hin|Hin].
  - apply holds_frame with (g := fold_left (fun acc x => add_member index x acc) r g0).
    + intros k Hk. apply add_member_frame.
      assert (Hn : In (ename e) (names (flat r))) by (apply in_map; exact Hin).
      eapply not_touches; [exact Hk|apply Hdisj; exact Hn|].
      intros H. eapply struct_ok_earlier; [exact Hx|exact H|]. rewrite <- names_flat. exact Hn.
    + apply IH; assumption.
  - eapply HFx; eassumption.
Qed.

(* fused_graph_holds with the goodness of the members as a premise: member_good applies it to a nested group, whose
   members are good by the induction hypothesis; fused_graph_holds follows once member_good is proved *)
Lemma fused_graph_holds_of_good : forall index sibs self grp ds, Forall (MemberGood index) grp ->
  forall_acc (struct_ok sibs) mnames [] grp = true -> NoDup (names (flat grp)) ->
  forallb (fun d => negb (memb (fst d) (names (flat grp)))) ds = true ->
  forall e, In e (flat grp) -> holds index (fused_graph self grp ds index) e.
Proof.
  intros index sibs self grp ds HF Hacc Hnd Hds e Hin. unfold fused_graph.
  eapply holds_frame; [|eapply level_holds; eassumption].
  intros k Hk. apply add_deps_other. intros d Hd Heq.
  rewrite forallb_forall in Hds. apply (proj1 (negb_memb _ _) (Hds d Hd)).
  rewrite <- Heq in Hk. injection Hk as ->. apply in_map. exact Hin.
Qed.

Lemma member_good : forall index m, MemberGood index m.
Proof.
  intros index m. induction m as [n np nd args|n np grp ds IH] using member_ind';
    intros sibs earlier g Hs Hnd e Hin.
  - destruct Hin as [<-|[]]. apply lookup_dset_same.
  - cbn [struct_ok] in Hs. rewrite !andb_true_iff in Hs. destruct Hs as [[_ Hdis] Hlev].
    change (NoDup (n :: names (flat grp))) in Hnd. apply NoDup_cons_iff in Hnd as [HnF Hnd].
    destruct Hin as [<-|Hin].
    + split; [rewrite add_member_fused; apply lookup_dset_same|].
      rewrite lookup_add_fused by discriminate. rewrite fused_graph_root by exact HnF. reflexivity.
    + apply holds_mono with (g := fused_graph n grp ds index);
        [|eapply fused_graph_holds_of_good; eassumption].
      intros k v Hk Hl. rewrite lookup_add_fused, Hl; [reflexivity|].
      intros ->. injection Hk as Hk. apply HnF. rewrite Hk. apply in_map. exact Hin.
Qed.

Lemma fused_graph_holds : forall index self grp ds,
  level_ok grp ds = true -> NoDup (names (flat grp)) ->
  forallb (fun d => negb (memb (fst d) (names (flat grp)))) ds = true ->
  forall e, In e (flat grp) -> holds index (fused_graph self grp ds index) e.
Proof.
  intros index self grp ds. apply fused_graph_holds_of_good.
  apply Forall_forall. intros x _. apply member_good.
Qed.

Lemma map_opt_impl : forall (A B : Type) (f f' : A -> option B) l ys,
  (forall x y, In x l -> f x = Some y -> f' x = Some y) -> map_opt f l = Some ys -> map_opt f' l = Some ys.
Proof.
  induction l as [|x r IH]; simpl; intros ys H Hm; [exact Hm|].
  destruct (f x) as [y|] eqn:Ex; [|discriminate].
  destruct (map_opt f r) as [ys'|] eqn:Er; [|discriminate].
  rewrite (H x y (or_introl eq_refl) Ex). rewrite (IH ys'); [exact Hm| |reflexivity].
  intros x0 y0 Hin. apply H. right; exact Hin.
Qed.
Lemma map_opt_map : forall (A B C : Type) (h : A -> B) (f : B -> option C) l,
  map_opt f (map h l) = map_opt (fun x => f (h x)) l.
Proof. induction l as [|x r IH]; simpl; [reflexivity|]. rewrite IH. reflexivity. Qed.
Lemma map_opt_None : forall (A B : Type) (f : A -> option B) l,
  map_opt f l = None -> exists x, In x l /\ f x = None.
Proof.
  induction l as [|x r IH]; simpl; intros H; [discriminate|].
  destruct (f x) eqn:Ex; [|exists x; auto].
  destruct (map_opt f r); [discriminate|]. destruct (IH eq_refl) as [x' [Hin Hx']]. exists x'. auto.
Qed.

Lemma find_entry_Some : forall n fl e, find_entry n fl = Some e -> In e fl /\ ename e = n.
Proof.
  induction fl as [|e0 r IH]; simpl; intros e H; [discriminate|].
  destruct (ename e0 =? n) eqn:E.
  - injection H as <-. split; [left; reflexivity|apply Nat.eqb_eq; exact E].
  - destruct (IH e H). split; [right|]; assumption.
Qed.
Lemma find_entry_None : forall n fl, find_entry n fl = None <-> ~ In n (names fl).
Proof.
  induction fl as [|e0 r IH]; simpl; [tauto|].
  destruct (ename e0 =? n) eqn:E.
  - apply Nat.eqb_eq in E. split; [discriminate|intros H; exfalso; apply H; left; exact E].
  - apply Nat.eqb_neq in E. rewrite IH. tauto.
Qed.
Lemma find_entry_NoDup : forall fl e, NoDup (names fl) -> In e fl -> find_entry (ename e) fl = Some e.
Proof.
  induction fl as [|e0 r IH]; simpl; intros e Hnd Hin; [contradiction|].
  apply NoDup_cons_iff in Hnd as [Hfresh Hnd]. destruct Hin as [->|Hin].
  - rewrite Nat.eqb_refl. reflexivity.
  - destruct (ename e0 =? ename e) eqn:E.
    + apply Nat.eqb_eq in E. exfalso. apply Hfresh. rewrite E. apply in_map. exact Hin.
    + apply IH; assumption.
Qed.

Section SemProofs.
  Variable V : Type.
  Variable fn_sem : nat -> list V -> V.
  Variable lit : nat -> V.
  Variable ext : nat -> nat -> V.

  (* both evaluators are monotone in the fuel: same induction, the recursive calls sit under map_opt *)
  Lemma eval_key_mono : forall f f' g pv k v, f <= f' ->
    eval_key fn_sem lit f g pv k = Some v -> eval_key fn_sem lit f' g pv k = Some v.
  Proof.
    induction f as [|f IH]; intros f' g pv k v Hle H; [discriminate|].
    destruct f' as [|f']; [lia|]. apply le_S_n in Hle. cbn [eval_key] in *.
    assert (Hargs : forall args vs,
              map_opt (fun a => match a with GLit z => Some (lit z) | GKey k' => eval_key fn_sem lit f g pv k' end) args
                = Some vs ->
              map_opt (fun a => match a with GLit z => Some (lit z) | GKey k' => eval_key fn_sem lit f' g pv k' end) args
                = Some vs).
    { intros args vs. apply map_opt_impl. intros [k'|z] y _ Hy; [apply (IH f'); assumption|exact Hy]. }
    (* a name and a partition key are looked up in the same way: an alias goes on by IH, a call by Hargs, an unbound
       key is None on both sides; a placeholder needs no fuel *)
    destruct k as [n|n i|j].
    - destruct (lookup _ g) as [[k'|fn args]|]; [apply (IH f'); assumption| |exact H].
      destruct (map_opt _ args) as [vs|] eqn:E; [|discriminate]. rewrite (Hargs _ _ E). exact H.
    - destruct (lookup _ g) as [[k'|fn args]|]; [apply (IH f'); assumption| |exact H].
      destruct (map_opt _ args) as [vs|] eqn:E; [|discriminate]. rewrite (Hargs _ _ E). exact H.
    - exact H.
  Qed.

  Lemma eval_flat_mono : forall f f' fl n idx v, f <= f' ->
    eval_flat fn_sem lit ext f fl n idx = Some v -> eval_flat fn_sem lit ext f' fl n idx = Some v.
  Proof.
    induction f as [|f IH]; intros f' fl n idx v Hle H; [discriminate|].
    destruct f' as [|f']; [lia|]. apply le_S_n in Hle. cbn [eval_flat] in *.
    destruct (find_entry n fl) as [[n0 np nd args|n0 np r ds]|]; [|apply (IH f'); assumption|exact H].
    destruct (map_opt _ args) as [vs|] eqn:E; [|discriminate].
    erewrite map_opt_impl; [exact H| |exact E].
    intros [z|d dnp dnd] y _ Hy; [exact Hy|apply (IH f'); assumption].
  Qed.

  (* the flat (unfused) evaluation is reproduced by any graph g that holds the expected binding of
     every entry and binds every declared dependency to a placeholder that carries its value; one step of
     eval_flat takes at most two of eval_key (the two aliases of a nested Fused; key, then placeholder of an
     external operand), hence 2 * fuel *)
  Section Simulation.
    Variable g : subgraph.
    Variable pv : list V.
    Variable index NP : nat.
    Variable fl : list fentry.
    Variable deps : list (nat * nat).

    Hypothesis Hidx : bidx NP index = index.
    Hypothesis Hok : forall e, In e fl -> entry_ok fl deps NP e = true.
    Hypothesis Hholds : forall e, In e fl -> holds index g e.
    Hypothesis Hdeps : forall d, In d deps -> exists j,
      lookup (dep_key index d) g = Some (TAlias (KPlace j)) /\
      nth_error pv j = Some (ext (fst d) (bidx (snd d) index)).

    Lemma bcast_idx : forall dnp dnd nd np, bcast dnp dnd nd || (dnp =? np) = true ->
      (if bcast dnp dnd nd then 0 else bidx np index) = bidx dnp index.
    Proof.
      intros dnp dnd nd np H. destruct (bcast dnp dnd nd) eqn:E.
      - unfold bcast in E. apply andb_true_iff in E as [E _]. unfold bidx. rewrite E. reflexivity.
      - apply Nat.eqb_eq in H. subst. reflexivity.
    Qed.

    Lemma simulation : forall fuel fuel' n e i v, 2 * fuel <= fuel' -> find_entry n fl = Some e ->
      i = bidx (enpart e) index ->
      eval_flat fn_sem lit ext fuel fl n i = Some v -> eval_key fn_sem lit fuel' g pv (KPart n i) = Some v.
    Proof.
      induction fuel as [|f IH]; intros fuel' n e i v Hle Hfind -> Hev; [discriminate|].
      destruct fuel' as [|[|f']]; [lia..|].
      cbn [eval_flat] in Hev. rewrite Hfind in Hev.
      destruct (find_entry_Some _ _ _ Hfind) as [Hin Hname].
      pose proof (Hholds _ Hin) as Hh. pose proof (Hok _ Hin) as Hg.
      destruct e as [n0 np nd args|n0 np r ds]; simpl in Hname; subst n0; cbn [enpart entry_ok holds] in *.
      - apply andb_true_iff in Hg as [_ Hargs]. rewrite forallb_forall in Hargs.
        cbn [eval_key]. rewrite Hh.
        unfold plain_task. rewrite map_opt_map.
        destruct (map_opt _ args) as [vs|] eqn:E; [|discriminate].
        erewrite map_opt_impl; [exact Hev| |exact E].
        intros [z|d dnp dnd] y Ha Hy; [exact Hy|]. cbn [blockwise_arg].
        specialize (Hargs _ Ha). cbn [arg_ok] in Hargs. apply andb_true_iff in Hargs as [Hbc Hres].
        rewrite (bcast_idx _ _ _ _ Hbc) in Hy |- *.
        destruct (find_entry d fl) as [e'|] eqn:Ed.
        + (* an operand inside the group *)
          apply Nat.eqb_eq in Hres. apply (IH (S f') d e' _ y); [lia|exact Ed|congruence|exact Hy].
        + (* an external operand: its key is an alias of its placeholder *)
          apply existsb_exists in Hres as [x [Hx Hxe]]. apply andb_true_iff in Hxe as [H1 H2].
          apply Nat.eqb_eq in H1, H2. destruct (Hdeps _ Hx) as [j [Hl Hn]].
          unfold dep_key in Hl. rewrite H1, H2 in Hl, Hn.
          destruct f as [|f0]; [discriminate|]. destruct f' as [|f']; [lia|].
          cbn [eval_flat] in Hy. rewrite Ed in Hy. injection Hy as <-.
          cbn [eval_key]. rewrite Hl. exact Hn.
      - (* a nested Fused: (n, index) -> n -> (root, index) *)
        apply andb_true_iff in Hg as [Hnp Hr]. apply Nat.eqb_eq in Hnp. subst np. rewrite Hidx in *.
        destruct (find_entry r fl) as [e'|] eqn:Er; [|discriminate]. apply Nat.eqb_eq in Hr.
        destruct Hh as [Hh1 Hh2]. cbn [eval_key]. rewrite Hh1. cbn [eval_key]. rewrite Hh2.
        apply (IH f' r e' index v); [lia|exact Er|congruence|exact Hev].
    Qed.
  End Simulation.
End SemProofs.

Section Termination.
  Variable V : Type.
  Variable fn_sem : nat -> list V -> V.
  Variable lit : nat -> V.
  Variable ext : nat -> nat -> V.
  Variable fl : list fentry.
  Hypothesis Hnd : NoDup (names fl).

  Definition GoodT (F : nat) (done : list nat) : Prop :=
    forall n, In n done -> forall idx, exists v, eval_flat fn_sem lit ext F fl n idx = Some v.

  Lemma dep_total : forall F done d idx, 0 < F -> GoodT F done ->
    match find_entry d fl with None => true | Some _ => memb d done end = true ->
    exists v, eval_flat fn_sem lit ext F fl d idx = Some v.
  Proof.
    intros F done d idx HF HG H. destruct (find_entry d fl) as [e|] eqn:E.
    - apply memb_In in H. apply HG. exact H.
    - destruct F; [lia|]. cbn [eval_flat]. rewrite E. eexists; reflexivity.
  Qed.

  (* one Kahn round costs one unit of fuel *)
  Lemma step_good : forall F done, 0 < F -> GoodT F done -> GoodT (S F) (topo_step fl done).
  Proof.
    intros F done HF HG n Hin idx. unfold topo_step in Hin. apply in_app_or in Hin as [Hin|Hin].
    - destruct (HG n Hin idx) as [v Hv]. exists v. revert Hv. apply eval_flat_mono. lia.
    - unfold names in Hin. apply in_map_iff in Hin as [e [Hname Hin]].
      apply filter_In in Hin as [Hin Hr]. apply andb_true_iff in Hr as [_ Hr].
      unfold ready in Hr. rewrite forallb_forall in Hr.
      cbn [eval_flat]. subst n. rewrite (find_entry_NoDup fl e Hnd Hin).
      destruct e as [n np nd args|n np r ds]; cbn [entry_deps] in Hr.
      + destruct (map_opt _ args) as [vs|] eqn:E; [eexists; reflexivity|exfalso].
        apply map_opt_None in E as [[z|d dnp dnd] [Ha Hn]]; [discriminate|].
        destruct (dep_total F done d (if bcast dnp dnd nd then 0 else idx) HF HG) as [v Hv]; [|congruence].
        apply Hr. apply in_flat_map. exists (ADep d dnp dnd). split; [exact Ha|left; reflexivity].
      + eapply dep_total; [exact HF|exact HG|]. apply Hr. left; reflexivity.
  Qed.

  Lemma iter_good : forall n F done, 0 < F -> GoodT F done -> GoodT (F + n) (topo_iter n fl done).
  Proof.
    induction n as [|n IH]; intros F done HF HG; [rewrite Nat.add_0_r; exact HG|].
    simpl topo_iter. rewrite Nat.add_succ_r. apply (IH (S F)); [lia|]. apply step_good; assumption.
  Qed.

  Lemma acyclic_total : acyclicb fl = true ->
    forall e, In e fl -> forall idx, exists v, eval_flat fn_sem lit ext (S (length fl)) fl (ename e) idx = Some v.
  Proof.
    intros H e Hin idx. unfold acyclicb in H. rewrite forallb_forall in H.
    apply (iter_good (length fl) 1 []); [lia|intros n []|].
    apply memb_In. apply H. exact Hin.
  Qed.
End Termination.

Lemma root_entry : forall m rest,
  exists e, find_entry (mname m) (flat (m :: rest)) = Some e /\ enpart e = mnpart m.
Proof.
  intros [n np nd args|n np grp ds] rest; unfold flat; simpl; rewrite Nat.eqb_refl;
    eexists; (split; reflexivity).
Qed.

Lemma bidx_lt : forall NP index, index < NP -> bidx NP index = index.
Proof.
  intros NP index H. unfold bidx. destruct (NP =? 1) eqn:E; [|reflexivity].
  apply Nat.eqb_eq in E. lia.
Qed.

Section Main.
  Variable V : Type.
  Variable fn_sem : nat -> list V -> V.
  Variable lit : nat -> V.
  Variable ext : nat -> nat -> V.

  Lemma dep_values_keys : forall index deps,
    dep_values ext (map (dep_key index) deps) = map (fun d => ext (fst d) (bidx (snd d) index)) deps.
  Proof. induction deps as [|d r IH]; simpl; [reflexivity|]. f_equal. exact IH. Qed.

  (* the scheduler's values reach the placeholders *)
  Lemma fused_graph_deps : forall self group deps index d, In d deps -> exists j,
    lookup (dep_key index d) (fused_graph self group deps index) = Some (TAlias (KPlace j)) /\
    nth_error (dep_values ext (map (dep_key index) deps)) j = Some (ext (fst d) (bidx (snd d) index)).
  Proof.
    intros self group deps index d Hd. unfold fused_graph. set (g0 := fold_left _ group _).
    destruct (add_deps_hit index deps 0 g0 (dep_key index d)) as [j [Hn Hl]]; [apply in_map; exact Hd|].
    exists j. split; [exact Hl|]. rewrite dep_values_keys. rewrite nth_error_map in *.
    destruct (nth_error deps j) as [d'|]; [|discriminate]. injection Hn as H1 H2.
    simpl. rewrite H1, H2. reflexivity.
  Qed.

  Theorem fused_task_eq : forall self_name group deps index,
    valid_group group deps = true -> self_fresh self_name group = true ->
    index < npart_of_root group ->
    exists v,
      eval_member fn_sem lit ext group (root_name group) index (eval_fuel group) = Some v /\
      exec_fused fn_sem lit (fused_task self_name group deps index)
                 (dep_values ext (snd (fused_task self_name group deps index))) (exec_fuel group) = Some v.
  Proof.
    intros self_name group deps index Hv Hself Hidx.
    unfold valid_group in Hv. rewrite !andb_true_iff in Hv.
    destruct Hv as [[[[[Hne Hnd] Hdis] Hent] Hlev] Hacy].
    apply nodupb_NoDup in Hnd. rewrite forallb_forall in Hent. apply bidx_lt in Hidx.
    destruct group as [|m rest]; [discriminate|].
    destruct (root_entry m rest) as [e0 [Hf0 Hnp0]]. destruct (find_entry_Some _ _ _ Hf0) as [Hin0 Hn0].
    (* the unfused root has a value (acyclicity) ... *)
    destruct (acyclic_total V fn_sem lit ext _ Hnd Hacy e0 Hin0 index) as [v Hv]. rewrite Hn0 in Hv.
    exists v. split; [exact Hv|].
    (* ... and the fused task follows the alias self -> root, then simulates the unfused evaluation *)
    unfold exec_fused, fused_task, exec_fuel. cbn [fst snd].
    rewrite Nat.add_succ_r. cbn [eval_key]. rewrite fused_graph_root by (apply negb_memb; exact Hself).
    eapply simulation with (fuel := eval_fuel (m :: rest)) (NP := mnpart m) (fl := flat (m :: rest)) (deps := deps)
                           (e := e0).
    - (* the root is not broadcast *) exact Hidx.
    - (* every entry passes entry_ok *) exact Hent.
    - (* the dict holds the bindings of every entry *) apply fused_graph_holds; [exact Hlev|exact Hnd|exact Hdis].
    - (* every dependency key is an alias of its placeholder *) apply fused_graph_deps.
    - (* fuel *) unfold eval_fuel. lia.
    - (* the root is an entry *) exact Hf0.
    - (* at its own partition number *) rewrite Hnp0. symmetry. exact Hidx.
    - (* the unfused value *) exact Hv.
  Qed.

  (* any larger fuel gives the same result; in particular the two sides are equal and defined *)
  Corollary fused_task_eq_fuel : forall self_name group deps index f1 f2,
    valid_group group deps = true -> self_fresh self_name group = true ->
    index < npart_of_root group -> eval_fuel group <= f1 -> exec_fuel group <= f2 ->
    exec_fused fn_sem lit (fused_task self_name group deps index)
               (dep_values ext (snd (fused_task self_name group deps index))) f2
    = eval_member fn_sem lit ext group (root_name group) index f1
    /\ eval_member fn_sem lit ext group (root_name group) index f1 <> None.
  Proof.
    intros self_name group deps index f1 f2 Hv Hs Hi H1 H2.
    destruct (fused_task_eq self_name group deps index Hv Hs Hi) as [v [Ha Hb]].
    unfold eval_member, exec_fused in *.
    apply eval_flat_mono with (f' := f1) in Ha; [|exact H1].
    apply eval_key_mono with (f' := f2) in Hb; [|exact H2].
    rewrite Ha, Hb. split; [reflexivity|discriminate].
  Qed.
End Main.

(* free term algebra: equality of results is the strongest possible comparison *)
Inductive term := TmLit (z : nat) | TmExt (d i : nat) | TmApp (fn : nat) (a : list term).

Definition run (t : subgraph * gkey * list gkey) (group : list member) : option term :=
  exec_fused TmApp TmLit t (dep_values TmExt (snd t)) (exec_fuel group).
Definition ref (group : list member) (index : nat) : option term :=
  eval_member TmApp TmLit TmExt group (root_name group) index (eval_fuel group).

(* 3-member chain, member 3 shared by 1 and 2, external dep 10 used twice (listed twice, as
   Fused.dependencies() does), external dep 11 is single-partition with lower ndim: broadcast, key (11,0) *)
Definition ex_chain : list member :=
  [ MPlain 1 4 2 [ADep 2 4 2; ADep 3 4 2];
    MPlain 2 4 2 [ADep 3 4 2; ADep 10 4 2; ALit 7];
    MPlain 3 4 2 [ADep 10 4 2; ADep 11 1 0] ].
Definition ex_chain_deps : list (nat * nat) := [(10, 4); (10, 4); (11, 1)].

Example ex_chain_valid : valid_group ex_chain ex_chain_deps = true /\ self_fresh 100 ex_chain = true.
Proof. vm_compute. split; reflexivity. Qed.
Example ex_chain_graph :
  fused_task 100 ex_chain ex_chain_deps 2 =
  ([(KName 100, TAlias (KPart 1 2));
    (KPart 1 2, TCall 1 [GKey (KPart 2 2); GKey (KPart 3 2)]);
    (KPart 2 2, TCall 2 [GKey (KPart 3 2); GKey (KPart 10 2); GLit 7]);
    (KPart 3 2, TCall 3 [GKey (KPart 10 2); GKey (KPart 11 0)]);
    (KPart 10 2, TAlias (KPlace 1)); (KPart 11 0, TAlias (KPlace 2))],
   KName 100, [KPart 10 2; KPart 10 2; KPart 11 0]).
Proof. vm_compute. reflexivity. Qed.
Example ex_chain_run :
  run (fused_task 100 ex_chain ex_chain_deps 2) ex_chain
  = Some (TmApp 1 [TmApp 2 [TmApp 3 [TmExt 10 2; TmExt 11 0]; TmExt 10 2; TmLit 7];
                   TmApp 3 [TmExt 10 2; TmExt 11 0]])
  /\ ref ex_chain 2 = run (fused_task 100 ex_chain ex_chain_deps 2) ex_chain.
Proof. vm_compute. split; reflexivity. Qed.

(* broadcast MEMBER: member 3 is a single-partition expression of lower ndim fused into a 4-partition group *)
Definition ex_bmember : list member :=
  [ MPlain 1 4 2 [ADep 2 4 2; ADep 3 1 0];
    MPlain 2 4 2 [ADep 10 4 2; ADep 3 1 0];
    MPlain 3 1 0 [ADep 12 1 0; ALit 5] ].
Definition ex_bmember_deps : list (nat * nat) := [(10, 4); (12, 1)].
Example ex_bmember_ok :
  valid_group ex_bmember ex_bmember_deps = true
  /\ run (fused_task 100 ex_bmember ex_bmember_deps 3) ex_bmember
     = Some (TmApp 1 [TmApp 2 [TmExt 10 3; TmApp 3 [TmExt 12 0; TmLit 5]]; TmApp 3 [TmExt 12 0; TmLit 5]])
  /\ ref ex_bmember 3 = run (fused_task 100 ex_bmember ex_bmember_deps 3) ex_bmember
  /\ lookup (KPart 3 0) (fst (fst (fused_task 100 ex_bmember ex_bmember_deps 3)))
     = Some (TCall 3 [GKey (KPart 12 0); GLit 5]).
Proof. vm_compute. repeat split; reflexivity. Qed.

(* nested group: member 20 is a Fused([21], deps 5, 11) whose dependency 5 is a LATER member of the
   outer group and whose dependency 11 is external to both *)
Definition ex_nested : list member :=
  [ MPlain 1 4 2 [ADep 20 4 2; ADep 5 4 2];
    MFused 20 4 [MPlain 21 4 2 [ADep 5 4 2; ADep 11 4 2]] [(5, 4); (11, 4)];
    MPlain 5 4 2 [ADep 10 4 2] ].
Definition ex_nested_deps : list (nat * nat) := [(10, 4); (11, 4)].
Example ex_nested_ok :
  valid_group ex_nested ex_nested_deps = true
  /\ run (fused_task 100 ex_nested ex_nested_deps 2) ex_nested
     = Some (TmApp 1 [TmApp 21 [TmApp 5 [TmExt 10 2]; TmExt 11 2]; TmApp 5 [TmExt 10 2]])
  /\ ref ex_nested 2 = run (fused_task 100 ex_nested ex_nested_deps 2) ex_nested.
Proof. vm_compute. repeat split; reflexivity. Qed.

(* the SAME nested group with member 5 listed BEFORE the nested Fused: graph.update(subgraph)
   replaces the task of (5, i) by the nested placeholder "_0"; valid_group rejects it, and the real
   evaluation is indeed wrong (member 5 is replaced by the value of external dep 10). *)
Definition ex_nested_misordered : list member :=
  [ MPlain 1 4 2 [ADep 20 4 2; ADep 5 4 2];
    MPlain 5 4 2 [ADep 10 4 2];
    MFused 20 4 [MPlain 21 4 2 [ADep 5 4 2; ADep 11 4 2]] [(5, 4); (11, 4)] ].
Example ex_nested_misordered_rejected :
  valid_group ex_nested_misordered ex_nested_deps = false
  /\ run (fused_task 100 ex_nested_misordered ex_nested_deps 2) ex_nested_misordered
     = Some (TmApp 1 [TmApp 21 [TmExt 10 2; TmExt 11 2]; TmExt 10 2])
  /\ ref ex_nested_misordered 2 <> run (fused_task 100 ex_nested_misordered ex_nested_deps 2) ex_nested_misordered.
Proof. vm_compute. repeat split; try reflexivity. discriminate. Qed.

(* a single-partition nested Fused broadcast into a 4-partition group: Fused._task writes (20, index)
   but the consumer asks for (20, 0): unbound key; rejected by valid_group *)
Definition ex_nested_bcast : list member :=
  [ MPlain 1 4 2 [ADep 10 4 2; ADep 20 1 0];
    MFused 20 1 [MPlain 21 1 0 [ADep 12 1 0]] [(12, 1)] ].
Example ex_nested_bcast_rejected :
  valid_group ex_nested_bcast [(10, 4); (12, 1)] = false
  /\ run (fused_task 100 ex_nested_bcast [(10, 4); (12, 1)] 2) ex_nested_bcast = None.
Proof. vm_compute. split; reflexivity. Qed.

(* binding order matters: fused_task_bad writes the outer placeholders BEFORE the members, so the
   nested group's own numbering ("_0" for its dependency 11) survives and member 21 reads the value of
   the outer "_0" = dependency 10. *)
Definition ex_bad : list member :=
  [ MPlain 1 4 2 [ADep 10 4 2; ADep 20 4 2];
    MFused 20 4 [MPlain 21 4 2 [ADep 11 4 2]] [(11, 4)] ].
Definition ex_bad_deps : list (nat * nat) := [(10, 4); (11, 4)].

Example ex_bad_good_order :
  valid_group ex_bad ex_bad_deps = true /\ self_fresh 100 ex_bad = true
  /\ run (fused_task 100 ex_bad ex_bad_deps 3) ex_bad = Some (TmApp 1 [TmExt 10 3; TmApp 21 [TmExt 11 3]])
  /\ ref ex_bad 3 = Some (TmApp 1 [TmExt 10 3; TmApp 21 [TmExt 11 3]]).
Proof. vm_compute. repeat split; reflexivity. Qed.
Example ex_bad_wrong_order :
  run (fused_task_bad 100 ex_bad ex_bad_deps 3) ex_bad = Some (TmApp 1 [TmExt 10 3; TmApp 21 [TmExt 10 3]])
  /\ run (fused_task_bad 100 ex_bad ex_bad_deps 3) ex_bad <> ref ex_bad 3.
Proof. vm_compute. split; [reflexivity|discriminate]. Qed.

(* the statement of fused_task_eq is FALSE for fused_task_bad *)
Theorem fused_task_bad_refuted :
  ~ (forall (V : Type) (fn_sem : nat -> list V -> V) (lit : nat -> V) (ext : nat -> nat -> V)
            self_name group deps index,
       valid_group group deps = true -> self_fresh self_name group = true ->
       index < npart_of_root group ->
       exec_fused fn_sem lit (fused_task_bad self_name group deps index)
                  (dep_values ext (snd (fused_task_bad self_name group deps index))) (exec_fuel group)
       = eval_member fn_sem lit ext group (root_name group) index (eval_fuel group)).
Proof.
  intros H. apply (proj2 ex_bad_wrong_order).
  apply (H term TmApp TmLit TmExt 100 ex_bad ex_bad_deps 3); [apply ex_bad_good_order..|vm_compute; lia].
Qed.

(* the general theorem instantiated (not by computation) on the examples *)
Example ex_nested_by_theorem : forall index, index < 4 ->
  exists v, ref ex_nested index = Some v /\ run (fused_task 100 ex_nested ex_nested_deps index) ex_nested = Some v.
Proof.
  intros index H. apply fused_task_eq; [vm_compute; reflexivity|vm_compute; reflexivity|exact H].
Qed.

Print Assumptions fused_task_eq.
Print Assumptions fused_task_eq_fuel.
Print Assumptions fused_task_bad_refuted.
Print Assumptions ex_nested_by_theorem.
Print Assumptions ex_chain_run.
Print Assumptions ex_nested_misordered_rejected.

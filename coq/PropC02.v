(* PropC02.v -- property C02: results equal the pandas meaning for every partitioning.  Statements; each is closed by
   theorems of the proof files (two by a few lines that put such theorems together).
   Proved for ALL lists of partitions (any count, any boundaries, empty partitions included) and all knobs:
   tree reductions, hash shuffles (co-location, the precondition of partitionwise joins and shuffle
   reductions), divisions-based repartitioning (the building block of alignment), label slices and lists, alignment
   of differently partitioned operands, n smallest rows.  Operators whose partition logic is pandas code (merge,
   groupby, rolling ...) are covered by the exhaustive-cut sweep only (partial). *)
From Coq Require Import Permutation.
From DX Require Import Base TreeReduce Shuffle ShuffleProofs Repart RepartProofs.
Local Open Scope nat_scope.

(* reductions: for EVERY partitioning ps of a column and every split_every, the generated tree computes the
   pandas value of the concatenated column (sum / max / min / count / len; missing values skipped) *)
Theorem C02_tree_sum : forall se (ps : list (list cell)), (forall k, se = Some k -> 2 <= k) ->
  exists levels, tree_layer (length ps) se (length ps) = Some levels /\
    exec_layer sum_comb sum_comb 0%Z levels (map sum_chunk ps) = spec_sum (concat ps).
Proof. exact tree_sum_correct. Qed.
Print Assumptions C02_tree_sum.
Theorem C02_tree_max : forall se (ps : list (list cell)), (forall k, se = Some k -> 2 <= k) ->
  exists levels, tree_layer (length ps) se (length ps) = Some levels /\
    exec_layer max_comb max_comb None levels (map max_chunk ps) = spec_max (concat ps).
Proof. exact tree_max_correct. Qed.
Print Assumptions C02_tree_max.
Theorem C02_tree_count : forall se (ps : list (list cell)), (forall k, se = Some k -> 2 <= k) ->
  exists levels, tree_layer (length ps) se (length ps) = Some levels /\
    exec_layer count_comb count_comb 0 levels (map count_chunk ps) = spec_count (concat ps).
Proof. exact tree_count_correct. Qed.
Print Assumptions C02_tree_count.

(* hash shuffle: whatever the input partitioning, output i holds exactly (a permutation of) the rows routed to i *)
Theorem C02_shuffle_colocates : forall (payload : Type) (n_in n_out k stages : nat) (Ps : list (list (row payload))) outs,
  length Ps = n_in -> 1 <= n_in -> n_in <= n_out -> 2 <= k -> n_in <= k ^ stages -> 1 <= stages ->
  (forall P r, In P Ps -> In r P -> target r < n_out) ->
  exec_shuffle (task_layer n_in n_out k stages (seq 0 n_out) false) Ps = Some outs ->
  Permutation (concat outs) (concat Ps) /\ (forall i r, i < n_out -> In r (nth i outs []) -> target r = i).
Proof. exact shuffle_permutation. Qed.
Print Assumptions C02_shuffle_colocates.

(* alignment building block: repartitioning to other divisions keeps every row, in order *)
Theorem C02_realign_preserves_rows : forall (row : Type) (idx : row -> Z) (a b : list Z) (pl : plan) (P : list (list row)),
  valid_divs a = true -> valid_divs b = true -> plan_ok a b pl = true ->
  respects idx a P -> parts_sorted idx P -> exec_plan idx P pl = spec_plan idx b P.
Proof. exact plan_ok_sound. Qed.
Print Assumptions C02_realign_preserves_rows.

(* label slices df.loc[lo:hi] return exactly the rows whose label lies in the closed range, in order, for every partitioning with
   truthful divisions (values equal to a division, bounds outside the divisions, open ends); a reversed slice is empty (D45) *)
From DX Require Import Divisions Loc LocProofs.
Theorem C02_loc_slice_rows : forall divs parts lo hi,
  truthful divs parts -> parts <> [] -> slice_ok lo hi ->
  concat (loc_parts divs parts lo hi) = filter (in_slice lo hi) (concat parts).
Proof. exact loc_rows. Qed.
Print Assumptions C02_loc_slice_rows.

Theorem C02_loc_reversed_slice_empty : forall divs parts l h,
  truthful divs parts -> parts <> [] -> (h < l)%Z ->
  concat (loc_parts divs parts (Some l) (Some h)) = [].
Proof. exact loc_reversed_empty. Qed.
Print Assumptions C02_loc_reversed_slice_empty.

(* label lists df.loc[[l1, l2, ...]]: exactly the rows carrying a requested label *)
From DX Require Import LocList LocListProofs.
Theorem C02_loc_list_rows_sound : forall divs parts labels i x,
  truthful divs parts -> In x (nth i (ll_parts divs parts labels) []) -> In x labels /\ In x (concat parts).
Proof. exact ll_rows_sound. Qed.
Print Assumptions C02_loc_list_rows_sound.

Theorem C02_loc_list_rows_complete : forall divs parts labels x,
  truthful divs parts -> parts <> [] -> labels_in_range divs labels ->
  In x labels -> In x (concat parts) -> In x (concat (ll_parts divs parts labels)).
Proof. exact ll_rows_complete. Qed.
Print Assumptions C02_loc_list_rows_complete.

(* alignment of differently partitioned operands with known divisions (calc_divisions_for_align + Repartition(force=True) +
   partition-wise operation): the common divisions are valid, contain every operand's boundaries and cover every operand;
   repartitioning an operand to them neither loses nor duplicates a row; rows with equal index values of the two operands
   meet in the same partition; and for every operation that is local in the index value (index-aligned arithmetic, index
   joins, combine_first, ...) the partition-wise result is exactly the global result cut at the common divisions --
   for all divisions and all partitions.  Tie: T-LAYER align_layer (real calc_divisions_for_align / collection divisions /
   computed partitions vs the extracted align_divisions, align_single). *)
From DX Require Import Align AlignProofs.
Theorem C02_align_divisions_valid : forall ds,
  ds <> [] -> Forall (fun d => (2 <= length d)%nat) ds -> Forall Repart.sortedZ ds ->
  valid_divs (align_divisions ds) = true.
Proof. exact align_valid. Qed.
Print Assumptions C02_align_divisions_valid.

Theorem C02_align_no_row_lost_or_duplicated : forall (row : Type) (idx : row -> Z) ds a (P : list (list row)),
  ds <> [] -> Forall (fun d => (2 <= length d)%nat) ds -> Forall Repart.sortedZ ds ->
  In a ds -> respects idx a P ->
  (forall r, In r (concat P) ->
     exists j, (j < length (align_divisions ds) - 1)%nat /\
               in_target (align_divisions ds) j (idx r) = true /\
               forall j', (j' < length (align_divisions ds) - 1)%nat ->
                          in_target (align_divisions ds) j' (idx r) = true -> j' = j)
  /\ Permutation (concat (spec_plan idx (align_divisions ds) P)) (concat P).
Proof. exact align_partition_exact. Qed.
Print Assumptions C02_align_no_row_lost_or_duplicated.

Theorem C02_align_copartitioned : forall (row : Type) (idx : row -> Z) b (P : list (list row)) v j, (j < length b - 1)%nat ->
  sel idx v (nth j (spec_plan idx b P) []) = if in_target b j v then sel idx v (concat P) else [].
Proof. exact align_copartitioned. Qed.
Print Assumptions C02_align_copartitioned.

Theorem C02_aligned_blockwise_is_global : forall (row : Type) (idx : row -> Z) (out : Type)
    (f : list row -> list row -> list out) (key : out -> Z),
  (forall (p : Z -> bool) A B,
      filter (fun o => p (key o)) (f A B) = f (filter (fun r => p (idx r)) A) (filter (fun r => p (idx r)) B)) ->
  forall ds a1 a2 (P1 P2 : list (list row)),
  ds <> [] -> Forall (fun d => (2 <= length d)%nat) ds -> Forall Repart.sortedZ ds ->
  In a1 ds -> In a2 ds -> respects idx a1 P1 -> respects idx a2 P2 ->
  (forall o, In o (f (concat P1) (concat P2)) ->
             (nthZ (align_divisions ds) 0 <= key o <= lastZ (align_divisions ds))%Z) ->
  (forall j, (j < length (align_divisions ds) - 1)%nat ->
     nth j (blockwise2 f (spec_plan idx (align_divisions ds) P1) (spec_plan idx (align_divisions ds) P2)) []
     = filter (fun o => in_target (align_divisions ds) j (key o)) (f (concat P1) (concat P2)))
  /\ Permutation (concat (blockwise2 f (spec_plan idx (align_divisions ds) P1) (spec_plan idx (align_divisions ds) P2)))
                 (f (concat P1) (concat P2)).
Proof.
  intros row idx out f key Hloc ds a1 a2 P1 P2 Hne Hl Hs H1 H2 R1 R2 Hk. split.
  - exact (aligned_blockwise_local row idx out f key Hloc ds a1 a2 P1 P2 Hne Hl Hs H1 H2 R1 R2).
  - exact (aligned_blockwise_perm row idx out f key Hloc ds a1 a2 P1 P2 Hne Hl Hs H1 H2 R1 R2 Hk).
Qed.
Print Assumptions C02_aligned_blockwise_is_global.

(* "use the left operand's divisions" loses rows of the other operand *)
Theorem C02_align_first_only_refuted :
  exists (ds : list (list Z)) (a : list Z) (P : list (list Z)) (r : Z),
    ds <> [] /\ Forall (fun d => (2 <= length d)%nat) ds /\ Forall Repart.sortedZ ds /\
    In a ds /\ respects idZ a P /\
    In r (concat P) /\
    ~ In r (concat (spec_plan idZ (align_divisions_first_only ds) P)) /\
    In r (concat (spec_plan idZ (align_divisions ds) P)).
Proof. exact align_first_only_refuted. Qed.
Print Assumptions C02_align_first_only_refuted.

(* n smallest / first n rows of the sorted input (NFirst, NSmallest: chunk = aggregate = "stable sort, keep the first n") give the
   same rows in the same order for EVERY partitioning: exact list equality, ties in global row order.  (The tree shape -- split_every --
   is irrelevant by TreeReduce.tree_layer_correct.)  Tie: T-LAYER select_layer (real nsmallest vs the extracted nfirst_tree). *)
From DX Require Import Select SelectProofs.
Theorem C02_nsmallest_partition_independent : forall A (key : A -> Z) n (parts : list (list A)),
  nfirst_tree key n parts = firstn n (sort_rows key (concat parts)).
Proof. exact nfirst_tree_correct. Qed.
Print Assumptions C02_nsmallest_partition_independent.

Theorem C02_sort_rows_is_stable_sort : forall A (key : A -> Z) (l : list A),
  Permutation (sort_rows key l) l /\
  Sorted.StronglySorted (fun a b => (key a <= key b)%Z) (sort_rows key l) /\
  (forall z, filter (fun a => (key a =? z)%Z) (sort_rows key l) = filter (fun a => (key a =? z)%Z) l).
Proof. intros A key l. split; [apply sort_rows_perm|]. split; [apply sort_rows_sorted|]. intro z. apply sort_rows_stable. Qed.
Print Assumptions C02_sort_rows_is_stable_sort.

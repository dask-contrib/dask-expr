(* SourceChecksHead.v -- the translated Head/Tail merge rule (_nested_selection of the current source) against NestedHead.v. *)
From Coq Require Import ZArith List Lia ZifyBool.
From DX Require Import GeneratedSource NestedHead.
Local Open Scope nat_scope.
Local Open Scope bool_scope.

Lemma src_nested_selection_nonneg : forall n2 n1 : nat,
  src_nested_selection (Z.of_nat n2) (Z.of_nat n1) = Some (Z.of_nat (Nat.min n2 n1)).
Proof.
  intros. unfold src_nested_selection.
  destruct ((Z.of_nat n2 >=? 0)%Z && (Z.of_nat n1 >=? 0)%Z) eqn:E; [f_equal; lia|lia].
Qed.

Lemma src_nested_selection_neg : forall m2 m1 : nat, 1 <= m2 -> 1 <= m1 ->
  src_nested_selection (- Z.of_nat m2) (- Z.of_nat m1) = Some (- Z.of_nat (m2 + m1)).
Proof.
  intros m2 m1 H2 H1. unfold src_nested_selection.
  destruct ((- Z.of_nat m2 >=? 0)%Z && (- Z.of_nat m1 >=? 0)%Z) eqn:E; [lia|].
  destruct ((- Z.of_nat m2 <? 0)%Z && (- Z.of_nat m1 <? 0)%Z) eqn:E2; [f_equal; lia|lia].
Qed.

(* mixed signs are not merged *)
Lemma src_nested_selection_mixed : forall (n : nat) (m : nat), 1 <= m ->
  src_nested_selection (- Z.of_nat m) (Z.of_nat n) = None /\ src_nested_selection (Z.of_nat n) (- Z.of_nat m) = None.
Proof.
  intros n m Hm. unfold src_nested_selection. split.
  - destruct ((- Z.of_nat m >=? 0)%Z && (Z.of_nat n >=? 0)%Z) eqn:E; [lia|].
    destruct ((- Z.of_nat m <? 0)%Z && (Z.of_nat n <? 0)%Z) eqn:E2; [lia|reflexivity].
  - destruct ((Z.of_nat n >=? 0)%Z && (- Z.of_nat m >=? 0)%Z) eqn:E; [lia|].
    destruct ((Z.of_nat n <? 0)%Z && (- Z.of_nat m <? 0)%Z) eqn:E2; [lia|reflexivity].
Qed.

(* whenever the source merges head(n1, npartitions=k) . head(n2) into head(n, npartitions=k), the merged node returns the same rows *)
Theorem src_nested_head_sound : forall (A : Type) (parts : list (list A)) k (n1 n2 : nat) n,
  src_nested_selection (Z.of_nat n2) (Z.of_nat n1) = Some n ->
  firstn n2 (head_rows parts k n1) = head_rows parts k (Z.to_nat n).
Proof.
  intros A parts k n1 n2 n H. rewrite src_nested_selection_nonneg in H. inversion H; subst.
  rewrite Nat2Z.id. apply nested_head_merge.
Qed.

Theorem src_nested_head_neg_sound : forall (A : Type) (l : list A) (m1 m2 : nat) n, 1 <= m1 -> 1 <= m2 ->
  src_nested_selection (- Z.of_nat m2) (- Z.of_nat m1) = Some n ->
  head_neg (head_neg l m1) m2 = head_neg l (Z.to_nat (- n)).
Proof.
  intros A l m1 m2 n H1 H2 H. rewrite src_nested_selection_neg in H by assumption. inversion H; subst.
  rewrite Z.opp_involutive, Nat2Z.id. apply nested_head_neg.
Qed.

Theorem src_nested_tail_sound : forall (A : Type) (l : list A) (n1 n2 : nat) n,
  src_nested_selection (Z.of_nat n2) (Z.of_nat n1) = Some n ->
  tail_rows (tail_rows l n1) n2 = tail_rows l (Z.to_nat n).
Proof.
  intros A l n1 n2 n H. rewrite src_nested_selection_nonneg in H. inversion H; subst.
  rewrite Nat2Z.id. apply nested_tail_merge.
Qed.

Print Assumptions src_nested_head_sound.
Print Assumptions src_nested_head_neg_sound.
Print Assumptions src_nested_tail_sound.
Print Assumptions src_nested_selection_mixed.

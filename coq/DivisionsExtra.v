(* DivisionsExtra.v -- general facts about reported divisions used by property C06: a partitionwise operation may report
   its input's divisions; a vector with another number of entries is never truthful (defects D35, D36). *)
From DX Require Import Base Divisions DivisionsProofs.

(* Any partitionwise operation whose output partition i holds only index values of input partition i
   (filters, element-wise operations, head of each partition, an inner / left / semi join on the index against a
   broadcast frame, a cumulative operation) may report the divisions of its input. *)
Theorem truthful_subset : forall divs parts parts',
  truthful divs parts ->
  length parts' = length parts ->
  (forall i x, i < length parts -> In x (nth i parts' []) -> In x (nth i parts [])) ->
  truthful divs parts'.
Proof.
  intros divs parts parts' [Hlen [Hsorted Hrows]] Hl Hsub.
  split; [rewrite Hl; exact Hlen|].
  split; [exact Hsorted|].
  intros i x Hi Hin. rewrite Hl in *. apply Hrows; [exact Hi|]. apply Hsub; assumption.
Qed.

(* ... but it must be the divisions of the input it really reads.  Once a partition selection has been pushed into a
   source, the divisions of the whole source (what X._divisions() of a partition-filtered X returns) have the wrong
   number of entries for every selection that is not as long as the source: defect D35. *)
Theorem raw_divisions_of_selection_refuted : forall divs parts sel,
  truthful divs parts ->
  length sel <> length parts ->
  ~ truthful divs (select_parts parts sel).
Proof.
  intros divs parts sel Ht Hne Ht'. apply truthful_length in Ht, Ht'.
  unfold select_parts in Ht'. rewrite map_length in Ht'. lia.
Qed.

(* while the selected divisions are right for the same derived node *)
Theorem derived_of_selection_truthful : forall divs parts sel d' parts',
  truthful divs parts ->
  (forall p, In p sel -> p < length parts) -> sel <> [] ->
  partitions_divisions divs sel = Some d' ->
  length parts' = length sel ->
  (forall i x, i < length sel -> In x (nth i parts' []) -> In x (nth i (select_parts parts sel) [])) ->
  truthful d' parts'.
Proof.
  intros divs parts sel d' parts' Ht Hb Hne Hd Hl Hsub.
  apply truthful_subset with (parts := select_parts parts sel).
  - eapply partitions_truthful; eauto.
  - unfold select_parts. rewrite map_length. exact Hl.
  - unfold select_parts at 1. rewrite map_length. exact Hsub.
Qed.

(* An index merge lowered to a partitionwise broadcast keeps the partitioning of the multi-partition side; reporting
   the merged divisions of both sides (one more entry whenever the single-partition side reaches beyond) has the
   wrong count: defect D36. *)
Theorem longer_divisions_refuted : forall divs divs' parts,
  truthful divs parts -> length divs' <> length divs -> ~ truthful divs' parts.
Proof.
  intros divs divs' parts Ht Hne Ht'. apply truthful_length in Ht, Ht'. lia.
Qed.

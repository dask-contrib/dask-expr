(* ListFacts.v -- facts about the list functions of the standard library (filter, flat_map, nth, last, seq, fold_left,
   fold_right Z.min / Z.max, forallb / existsb, Permutation) that Coq 8.16 lacks, and one definition, `cuts`, with its
   facts.  It imports no file of the project; none of the files that hold a model only imports it. *)
From Coq Require Import List ZArith Lia Permutation.
Import ListNotations.

Lemma filter_true : forall {A} (f : A -> bool) l, (forall x, In x l -> f x = true) -> filter f l = l.
Proof.
  induction l as [|a l IH]; intros H; [reflexivity|]. cbn [filter].
  rewrite (H a (or_introl eq_refl)), IH; [reflexivity|]. intros; apply H; right; assumption.
Qed.

Lemma filter_false : forall {A} (f : A -> bool) l, (forall x, In x l -> f x = false) -> filter f l = [].
Proof.
  induction l as [|a l IH]; intros H; [reflexivity|]. cbn [filter].
  rewrite (H a (or_introl eq_refl)). apply IH. intros; apply H; right; assumption.
Qed.

Lemma flat_map_ext_in : forall {A B} (f g : A -> list B) l,
  (forall x, In x l -> f x = g x) -> flat_map f l = flat_map g l.
Proof. intros A B f g l H. rewrite !flat_map_concat_map. f_equal. apply map_ext_in, H. Qed.

Lemma flat_map_nil : forall {A B} (f : A -> list B) l, (forall x, In x l -> f x = []) -> flat_map f l = [].
Proof.
  induction l as [|a l IH]; intros H; [reflexivity|].
  cbn [flat_map]. rewrite (H a (or_introl eq_refl)). apply IH. intros; apply H; right; assumption.
Qed.

Lemma flat_map_map : forall {A B C} (h : A -> B) (g : B -> list C) l,
  flat_map g (map h l) = flat_map (fun x => g (h x)) l.
Proof. intros A B C h g l. rewrite !flat_map_concat_map, map_map. reflexivity. Qed.

Lemma flat_map_concat : forall {A B} (f : A -> list B) L, flat_map f (concat L) = flat_map (flat_map f) L.
Proof. induction L as [|l L IH]; [reflexivity|]. cbn [concat flat_map]. rewrite flat_map_app, IH. reflexivity. Qed.

Lemma filter_flat_map : forall {A B} (f : B -> bool) (g : A -> list B) l,
  filter f (flat_map g l) = flat_map (fun x => filter f (g x)) l.
Proof. induction l as [|a l IH]; [reflexivity|]. cbn [flat_map]. rewrite filter_app, IH. reflexivity. Qed.

Lemma filter_filter : forall {A} (f g : A -> bool) l, filter f (filter g l) = filter (fun x => g x && f x)%bool l.
Proof.
  induction l as [|a l IH]; [reflexivity|].
  cbn [filter]. destruct (g a); cbn [filter andb]; [destruct (f a)|]; rewrite IH; reflexivity.
Qed.

Lemma Permutation_filter : forall {A} (f : A -> bool) l l', Permutation l l' -> Permutation (filter f l) (filter f l').
Proof.
  induction 1; cbn [filter].
  - constructor.
  - destruct (f x); [constructor|]; assumption.
  - destruct (f x), (f y); try apply Permutation_refl. apply perm_swap.
  - eapply perm_trans; eassumption.
Qed.

Lemma flat_map_window : forall {B} (f : nat -> list B) s m n,
  s + m <= n -> (forall i, i < n -> i < s \/ s + m <= i -> f i = []) ->
  flat_map f (seq 0 n) = flat_map (fun i => f (s + i)) (seq 0 m).
Proof.
  intros B f s. revert f. induction s as [|s IH]; intros f m n Hn H.
  - replace n with (m + (n - m)) by lia. rewrite seq_app, flat_map_app.
    rewrite (flat_map_nil f (seq (0 + m) _)); [apply app_nil_r|]. intros i Hi. apply in_seq in Hi. apply H; lia.
  - destruct n as [|n]; [lia|]. cbn [seq flat_map]. rewrite (H 0), <- seq_shift, flat_map_map by lia.
    apply (IH (fun i => f (S i))); [lia|]. intros i Hi Ho. apply H; lia.
Qed.

Lemma flat_map_single : forall {B} (f : nat -> list B) n c,
  c < n -> (forall i, i < n -> i <> c -> f i = []) -> flat_map f (seq 0 n) = f c.
Proof.
  intros B f n c Hc H. rewrite (flat_map_window f c 1 n); [|lia|intros i Hi Ho; apply H; lia].
  cbn [seq flat_map]. rewrite Nat.add_0_r. apply app_nil_r.
Qed.

Lemma flat_map_app_perm : forall {A B} (f g : A -> list B) l,
  Permutation (flat_map (fun x => f x ++ g x) l) (flat_map f l ++ flat_map g l).
Proof.
  induction l as [|a l IH]; cbn [flat_map]; [constructor|].
  rewrite IH. rewrite <- !app_assoc. apply Permutation_app_head.
  rewrite !app_assoc. apply Permutation_app_tail. apply Permutation_app_comm.
Qed.

Lemma flat_map_swap : forall {A B C} (f : A -> B -> list C) l1 l2,
  Permutation (flat_map (fun i => flat_map (f i) l2) l1) (flat_map (fun q => flat_map (fun i => f i q) l1) l2).
Proof.
  induction l1 as [|a l1 IH]; intros l2; cbn [flat_map].
  - rewrite flat_map_nil; auto.
  - rewrite IH. symmetry. apply (flat_map_app_perm (f a) (fun q => flat_map (fun i => f i q) l1)).
Qed.

Lemma Permutation_flat_map_pw : forall {A B} (f g : A -> list B) l,
  (forall x, In x l -> Permutation (f x) (g x)) -> Permutation (flat_map f l) (flat_map g l).
Proof.
  induction l as [|a l IH]; intros H; cbn [flat_map]; [constructor|].
  apply Permutation_app; [apply H; left; reflexivity|apply IH; intros; apply H; right; assumption].
Qed.

Lemma flat_map_nth_seq : forall {A} (P : list (list A)) n,
  length P <= n -> flat_map (fun j => nth j P []) (seq 0 n) = concat P.
Proof.
  intros A P. induction P as [|p P IH]; intros n H.
  - apply flat_map_nil. intros [|j] _; reflexivity.
  - destruct n as [|n]; [cbn in H; lia|]. cbn [seq flat_map nth concat]. f_equal.
    rewrite <- seq_shift, flat_map_map. apply IH. cbn in H. lia.
Qed.

Lemma concat_nth_seq : forall {A} (P : list (list A)), flat_map (fun i => nth i P []) (seq 0 (length P)) = concat P.
Proof. intros A P. apply flat_map_nth_seq, le_n. Qed.

(* the default d of the inner nth comes first: the left-hand side does not determine it *)
Lemma nth_map_lt : forall {A B} (d : A) (f : A -> B) l j d', j < length l -> nth j (map f l) d' = f (nth j l d).
Proof.
  intros A B d f l j d' Hj. rewrite (nth_indep (map f l) d' (f d)) by (rewrite map_length; exact Hj).
  apply map_nth.
Qed.

Lemma nth_map_seq : forall {A} (g : nat -> A) n j d, j < n -> nth j (map g (seq 0 n)) d = g j.
Proof.
  intros A g n j d Hj. rewrite (nth_map_lt 0 g (seq 0 n) j d) by (rewrite seq_length; exact Hj).
  rewrite seq_nth by exact Hj. reflexivity.
Qed.

Lemma nth_firstn_lt : forall {A} (l : list A) k i d, i < k -> nth i (firstn k l) d = nth i l d.
Proof.
  intros A l. induction l as [|a l IH]; intros k i d Hi; [rewrite firstn_nil; reflexivity|].
  destruct k as [|k]; [lia|]. destruct i as [|i]; [reflexivity|]. cbn [firstn nth]. apply IH. lia.
Qed.

Lemma last_nth : forall {A} (l : list A) d, last l d = nth (length l - 1) l d.
Proof.
  intros A l d. induction l as [|a [|b l] IH]; [reflexivity..|].
  cbn [last length Nat.sub] in *. rewrite IH, Nat.sub_0_r. reflexivity.
Qed.

Lemma last_In : forall {A} (l : list A) d, l <> [] -> In (last l d) l.
Proof. intros A l d Hl. rewrite last_nth. apply nth_In. destruct l; [congruence|cbn; lia]. Qed.

Lemma last_map : forall {A B} (g : A -> B) l d, last (map g l) (g d) = g (last l d).
Proof. intros A B g l d. induction l as [|a [|b l] IH]; [reflexivity..|exact IH]. Qed.

Lemma hd_nth0 : forall {A} (l : list A) d, hd d l = nth 0 l d.
Proof. intros A [|a l] d; reflexivity. Qed.

Lemma concat_singletons : forall {A} (l : list A), concat (map (fun p => [p]) l) = l.
Proof. induction l as [|a l IH]; [reflexivity|]. cbn. rewrite IH. reflexivity. Qed.

Lemma adjacent_mono : forall {A} (R : A -> A -> Prop), (forall x, R x x) -> (forall x y z, R x y -> R y z -> R x z) ->
  forall (f : nat -> A) n, (forall t, S t < n -> R (f t) (f (S t))) -> forall i j, i <= j -> j < n -> R (f i) (f j).
Proof.
  intros A R Hrefl Htrans f n Hadj i j Hij. induction Hij as [|m Hle IH]; intros Hj; [apply Hrefl|].
  apply (Htrans _ (f m)); [apply IH; lia|apply Hadj, Hj].
Qed.

Lemma forallb_ext : forall {A} (f g : A -> bool) l, (forall x, f x = g x) -> forallb f l = forallb g l.
Proof. intros A f g l H. induction l as [|x l IH]; cbn [forallb]; [|rewrite H, IH]; reflexivity. Qed.

Lemma forallb_seq : forall (f : nat -> bool) a n,
  forallb f (seq a n) = true <-> forall i, a <= i < a + n -> f i = true.
Proof. intros. rewrite forallb_forall. split; intros H i Hi; apply H, in_seq, Hi. Qed.

Lemma seq_app_range : forall p q r, p <= q <= r -> seq p (q - p) ++ seq q (r - q) = seq p (r - p).
Proof.
  intros p q r H. replace (r - p) with ((q - p) + (r - q)) by lia. rewrite seq_app. do 2 f_equal. lia.
Qed.

Lemma fold_left_inv : forall {A B} (h : A -> B -> A) (I : A -> Prop) l,
  (forall a x, In x l -> I a -> I (h a x)) -> forall a, I a -> I (fold_left h l a).
Proof.
  induction l as [|x r IH]; simpl; intros H a Ha; [exact Ha|].
  apply IH; [intros a' y Hy; apply H; right; exact Hy|apply H; [left; reflexivity|exact Ha]].
Qed.

(* membership tested with a Boolean equality, as Fusion.memb, Graph.memn and Pred.mem do *)
Lemma existsb_eqb_In : forall {A} (eqb : A -> A -> bool), (forall a b, eqb a b = true <-> a = b) ->
  forall x l, existsb (eqb x) l = true <-> In x l.
Proof.
  intros A eqb H x l. rewrite existsb_exists. split.
  - intros (y & Hy & E). apply H in E. subst. exact Hy.
  - intros Hx. exists x. split; [exact Hx|apply H; reflexivity].
Qed.

(* [cuts g n L]: the pieces of L selected by the tests g 0, ..., g (n-1).  Repart.spec_plan, SetIndex.sp_parts,
   SetIndex.sp_parts_desc and map (Shuffle.routed Ps) (seq 0 n) unfold to this. *)
Definition cuts {A} (g : nat -> A -> bool) (n : nat) (L : list A) : list (list A) :=
  map (fun j => filter (g j) L) (seq 0 n).

Lemma cuts_length : forall {A} (g : nat -> A -> bool) n L, length (cuts g n L) = n.
Proof. intros. unfold cuts. rewrite map_length. apply seq_length. Qed.

Lemma cuts_nth : forall {A} (g : nat -> A -> bool) n L j, j < n -> nth j (cuts g n L) [] = filter (g j) L.
Proof. intros A g n L j. apply (nth_map_seq (fun j => filter (g j) L)). Qed.

Lemma In_cuts : forall {A} (g : nat -> A -> bool) n L j x,
  In x (nth j (cuts g n L) []) <-> j < n /\ In x L /\ g j x = true.
Proof.
  intros A g n L j x. destruct (Nat.lt_ge_cases j n) as [Hj|Hj].
  - rewrite cuts_nth, filter_In by exact Hj. tauto.
  - rewrite nth_overflow by (rewrite cuts_length; exact Hj). cbn [In]. lia.
Qed.

Lemma cuts_perm : forall {A} (g : nat -> A -> bool) n L,
  (forall x, In x L -> exists j, j < n /\ g j x = true /\ forall j', j' < n -> g j' x = true -> j' = j) ->
  Permutation (concat (cuts g n L)) L.
Proof.
  intros A g n. unfold cuts. induction L as [|x L IH]; intros H; rewrite <- flat_map_concat_map.
  - rewrite flat_map_nil; auto.
  - (* the head x adds [x] to piece j and nothing to the other pieces *)
    destruct (H x (or_introl eq_refl)) as (j & Hj & Hg & Hu).
    rewrite (flat_map_ext_in _ (fun p => (if g p x then [x] else []) ++ filter (g p) L)).
    2:{ intros p _. cbn [filter]. destruct (g p x); reflexivity. }
    rewrite flat_map_app_perm, (flat_map_single _ n j), Hg.
    + cbn [app]. constructor. rewrite flat_map_concat_map. apply IH. intros y Hy. apply H. right. exact Hy.
    + exact Hj.
    + intros i Hi Hne. destruct (g i x) eqn:E; [|reflexivity]. elim Hne. apply Hu; assumption.
Qed.

Lemma cuts_perm_class : forall {A} (c : A -> nat) n (L : list A),
  (forall r, In r L -> c r < n) -> Permutation (concat (cuts (fun p r => c r =? p) n L)) L.
Proof.
  intros A c n L H. apply cuts_perm. intros x Hx. exists (c x).
  split; [apply H, Hx|]. split; [apply Nat.eqb_refl|]. intros j' _ E. apply Nat.eqb_eq in E. congruence.
Qed.

(* smallest / largest element, as min(l) / max(l) compute it *)

Lemma fold_min_spec : forall l d,
  In (fold_right Z.min d l) (d :: l) /\ forall y, In y (d :: l) -> (fold_right Z.min d l <= y)%Z.
Proof.
  induction l as [|x l IH]; intros d; cbn [fold_right].
  - split; [left; reflexivity|intros y [<-|[]]; lia].
  - destruct (IH d) as [H1 H2]. split.
    + destruct (Z.min_spec x (fold_right Z.min d l)) as [[_ E]|[_ E]]; rewrite E; cbn [In] in *; intuition.
    + intros y [<-|[<-|Hy]]; [specialize (H2 d (or_introl eq_refl))|lia|specialize (H2 y (or_intror Hy))]; lia.
Qed.

Lemma fold_max_spec : forall l d,
  In (fold_right Z.max d l) (d :: l) /\ forall y, In y (d :: l) -> (y <= fold_right Z.max d l)%Z.
Proof.
  induction l as [|x l IH]; intros d; cbn [fold_right].
  - split; [left; reflexivity|intros y [<-|[]]; lia].
  - destruct (IH d) as [H1 H2]. split.
    + destruct (Z.max_spec x (fold_right Z.max d l)) as [[_ E]|[_ E]]; rewrite E; cbn [In] in *; intuition.
    + intros y [<-|[<-|Hy]]; [specialize (H2 d (or_introl eq_refl))|lia|specialize (H2 y (or_intror Hy))]; lia.
Qed.

(* with the head as the start value, as LocList.min_list / Align.minl and their max twins are defined *)
Lemma list_min_spec : forall l : list Z, l <> [] ->
  In (fold_right Z.min (hd 0%Z l) l) l /\ forall y, In y l -> (fold_right Z.min (hd 0%Z l) l <= y)%Z.
Proof.
  intros [|x l] H; [congruence|]. destruct (fold_min_spec (x :: l) x) as [H1 H2]. cbn [hd].
  split; [destruct H1 as [H1|H1]; [left|]; exact H1|intros y Hy; apply H2; right; exact Hy].
Qed.

Lemma list_max_spec : forall l : list Z, l <> [] ->
  In (fold_right Z.max (hd 0%Z l) l) l /\ forall y, In y l -> (y <= fold_right Z.max (hd 0%Z l) l)%Z.
Proof.
  intros [|x l] H; [congruence|]. destruct (fold_max_spec (x :: l) x) as [H1 H2]. cbn [hd].
  split; [destruct H1 as [H1|H1]; [left|]; exact H1|intros y Hy; apply H2; right; exact Hy].
Qed.

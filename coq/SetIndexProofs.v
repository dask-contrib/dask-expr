(* SetIndexProofs.v -- routing by set_index / sort_values (SetIndex.v): from the first division upwards sp_part is
   Loc.part_of, whose facts carry over; the descending routing is the ascending one mirrored. *)
From DX Require Import Base ListFacts Divisions DivisionsProofs Loc LocProofs SetIndex.
From Coq Require Import ZifyBool Permutation.

Lemma bisect_right_mono : forall divs v w, (v <= w)%Z -> bisect_right divs v <= bisect_right divs w.
Proof.
  intros divs v w H. apply Nat.nlt_ge. intros L. apply bisect_right_lt in L. lia.
Qed.

Lemma bisect_right_pos : forall divs v, 1 <= length divs -> (nth 0 divs 0 <= v)%Z -> 1 <= bisect_right divs v.
Proof.
  intros [|a r] v Hl H; simpl in *; [lia|].
  destruct (a <=? v)%Z eqn:E; lia.
Qed.

Lemma sp_part_part_of : forall divs v, 1 <= length divs -> (nth 0 divs 0 <= v)%Z -> sp_part divs v = part_of divs v.
Proof.
  intros divs v Hl H0. pose proof (bisect_right_pos divs v Hl H0). pose proof (bisect_right_le_length divs v).
  unfold sp_part, part_of. destruct (_ || _) eqn:E; lia.
Qed.

Lemma sp_part_desc_mirror : forall divs v, sp_part_desc divs v = length divs - 2 - sp_part divs v.
Proof.
  intros divs v. pose proof (bisect_right_le_length divs v).
  unfold sp_part_desc, sp_part.
  destruct ((bisect_right divs v =? 0) || (length divs <=? bisect_right divs v)) eqn:E1;
    destruct ((bisect_right divs v =? 0) || (length divs - 1 <=? bisect_right divs v - 1)) eqn:E2; lia.
Qed.

Lemma sp_part_bound : forall divs v, 2 <= length divs -> sp_part divs v <= length divs - 2.
Proof.
  intros divs v _. pose proof (bisect_right_le_length divs v).
  unfold sp_part. destruct (_ || _) eqn:E; lia.
Qed.

Lemma sortedZ_mono : forall l i j, sortedZ l -> i <= j -> j < length l -> (nth i l 0 <= nth j l 0)%Z.
Proof. exact sortedZ_le. Qed.

(* a key inside the range of the divisions lands in a partition whose reported bounds contain it *)
Theorem sp_part_row_ok : forall divs v, sortedZ divs -> 2 <= length divs ->
  (nth 0 divs 0 <= v <= nth (length divs - 1) divs 0)%Z ->
  row_ok divs (length divs - 1) (sp_part divs v) v.
Proof.
  intros divs v Hs Hl Hv. rewrite sp_part_part_of by lia. apply part_of_row_ok; assumption.
Qed.

Lemma sp_parts_length : forall divs rows, length (sp_parts divs rows) = length divs - 1.
Proof. intros divs rows. apply (cuts_length (fun i v => sp_part divs v =? i)). Qed.

Theorem set_index_partition_exact : forall divs rows i v, i < length divs - 1 ->
  (In v (nth i (sp_parts divs rows) []) <-> In v rows /\ sp_part divs v = i).
Proof.
  intros divs rows i v Hi. unfold sp_parts. rewrite nth_map_seq by exact Hi. rewrite filter_In, Nat.eqb_eq. tauto.
Qed.

Corollary set_index_no_row_lost : forall divs rows v, 2 <= length divs -> In v rows ->
  In v (nth (sp_part divs v) (sp_parts divs rows) []).
Proof.
  intros divs rows v Hl Hin. apply set_index_partition_exact.
  - pose proof (sp_part_bound divs v Hl). lia.
  - split; [exact Hin|reflexivity].
Qed.

Theorem set_index_truthful : forall divs rows, sortedZ divs -> 2 <= length divs -> keys_within divs rows ->
  truthful divs (sp_parts divs rows).
Proof.
  intros divs rows Hs Hl Hk. unfold truthful. rewrite sp_parts_length.
  split; [lia|]. split; [exact Hs|].
  intros i x Hi Hin. apply set_index_partition_exact in Hin; [|exact Hi].
  destruct Hin as [Hin <-]. apply sp_part_row_ok; auto.
Qed.

(* without the range assumption the statement is false: a key below divisions[0] is sent to the LAST partition
   (user-given divisions that do not cover the data) *)
Theorem set_index_below_refuted : exists divs rows, sortedZ divs /\ 2 <= length divs /\
  ~ truthful divs (sp_parts divs rows).
Proof.
  exists [10; 20; 30]%Z, [5]%Z. split; [apply sortedZb_spec; reflexivity|]. split; [simpl; lia|].
  apply truthfulb_false. vm_compute. reflexivity.
Qed.

(* non-vacuity: a concrete frame meets the hypotheses, with keys equal to divisions and to the last division *)
Example set_index_example :
  sortedZ [0; 10; 10; 30]%Z /\ keys_within [0; 10; 10; 30]%Z [30; 0; 10; 29; 9]%Z /\
  sp_parts [0; 10; 10; 30]%Z [30; 0; 10; 29; 9]%Z = [[0; 9]; []; [30; 10; 29]]%Z.
Proof.
  split; [apply sortedZb_spec; reflexivity|]. split; [intros v Hv; simpl in *; lia|].
  vm_compute. reflexivity.
Qed.

Theorem sp_part_mono : forall divs v w, 2 <= length divs -> (nth 0 divs 0 <= v)%Z -> (v <= w)%Z ->
  sp_part divs v <= sp_part divs w.
Proof.
  intros divs v w Hl H0 Hvw. rewrite !sp_part_part_of by lia.
  apply Nat.nlt_ge. intros L. apply part_of_lt in L. lia.
Qed.

Theorem sp_part_desc_anti : forall divs v w, 2 <= length divs -> (nth 0 divs 0 <= v)%Z -> (v <= w)%Z ->
  sp_part_desc divs w <= sp_part_desc divs v.
Proof.
  intros divs v w Hl H0 Hvw. rewrite !sp_part_desc_mirror.
  pose proof (sp_part_mono divs v w Hl H0 Hvw). lia.
Qed.

(* Order between output partitions: whatever divisions were chosen (npartitions, upsample, quantile estimates), sorting
   every output partition yields a globally sorted frame.
   Ascending: every key of an earlier output partition is <= every key of a later one *)
Theorem sort_partitions_ordered : forall divs rows i j x y, 2 <= length divs -> keys_above divs rows ->
  i < j -> j < length divs - 1 ->
  In x (nth i (sp_parts divs rows) []) -> In y (nth j (sp_parts divs rows) []) -> (x <= y)%Z.
Proof.
  intros divs rows i j x y Hl Hk Hij Hj Hx Hy.
  apply set_index_partition_exact in Hx; [|lia]. apply set_index_partition_exact in Hy; [|lia].
  destruct Hx as [Hx <-], Hy as [Hy <-].
  rewrite !sp_part_part_of in Hij by (lia || apply Hk; assumption).
  apply part_of_lt in Hij. lia.
Qed.

Lemma sp_parts_desc_nth : forall divs rows i, 2 <= length divs -> i < length divs - 1 ->
  nth i (sp_parts_desc divs rows) [] = nth (length divs - 2 - i) (sp_parts divs rows) [].
Proof.
  intros divs rows i Hl Hi. unfold sp_parts_desc, sp_parts. rewrite !nth_map_seq by lia.
  apply filter_ext. intros v. rewrite sp_part_desc_mirror. pose proof (sp_part_bound divs v Hl). lia.
Qed.

(* descending: every key of an earlier output partition is >= every key of a later one *)
Theorem sort_desc_partitions_ordered : forall divs rows i j x y, 2 <= length divs -> keys_above divs rows ->
  i < j -> j < length divs - 1 ->
  In x (nth i (sp_parts_desc divs rows) []) -> In y (nth j (sp_parts_desc divs rows) []) -> (y <= x)%Z.
Proof.
  intros divs rows i j x y Hl Hk Hij Hj Hx Hy. rewrite sp_parts_desc_nth in Hx, Hy by lia.
  apply (sort_partitions_ordered divs rows (length divs - 2 - j) (length divs - 2 - i) y x); try assumption; lia.
Qed.

(* the hypothesis is needed: a key below the first division is sent to the last partition (ascending) *)
Theorem sort_partitions_below_refuted : exists divs rows i j x y, 2 <= length divs /\ i < j /\ j < length divs - 1 /\
  In x (nth i (sp_parts divs rows) []) /\ In y (nth j (sp_parts divs rows) []) /\ (y < x)%Z.
Proof.
  exists [10; 20; 30]%Z, [15; 5]%Z, 0, 1, 15%Z, 5%Z. vm_compute.
  repeat split; try lia; left; reflexivity.
Qed.

Example sort_desc_example :
  sp_parts_desc [0; 10; 20; 30]%Z [30; 0; 10; 29; 9; 20]%Z = [[30; 29; 20]; [10]; [0; 9]]%Z /\
  keys_above [0; 10; 20; 30]%Z [30; 0; 10; 29; 9; 20]%Z.
Proof. split; [vm_compute; reflexivity|]. intros v Hv. simpl in *. lia. Qed.

Theorem set_index_perm : forall divs rows, 2 <= length divs -> Permutation (concat (sp_parts divs rows)) rows.
Proof.
  intros divs rows Hl. apply (cuts_perm_class (sp_part divs)).
  intros v _. pose proof (sp_part_bound divs v Hl). lia.
Qed.

Theorem set_index_row_count : forall divs rows, 2 <= length divs ->
  length (concat (sp_parts divs rows)) = length rows.
Proof. intros divs rows Hl. apply Permutation_length, set_index_perm, Hl. Qed.

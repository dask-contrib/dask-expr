(* GraphProofs.v -- schedule independence of task-graph execution.
   Determinacy, agreement of complete runs, progress, the canonical schedule, and soundness of
   the well-formedness checker (unique keys, closed, acyclic). *)
From DX Require Import Base ListFacts Graph.

Lemma memn_In : forall k l, memn k l = true <-> In k l.
Proof. exact (existsb_eqb_In Nat.eqb Nat.eqb_eq). Qed.

Lemma memn_false_In : forall k l, memn k l = false <-> ~ In k l.
Proof.
  intros k l. rewrite <- memn_In. destruct (memn k l); split; intros; congruence.
Qed.

Lemma keys_of_app : forall g1 g2, keys_of (g1 ++ g2) = keys_of g1 ++ keys_of g2.
Proof. intros. unfold keys_of. apply map_app. Qed.

Lemma keys_of_cons : forall n g, keys_of (n :: g) = g_key n :: keys_of g.
Proof. reflexivity. Qed.

Lemma in_keys_of : forall n g, In n g -> In (g_key n) (keys_of g).
Proof. intros. unfold keys_of. apply in_map. assumption. Qed.

Lemma ordered_app : forall g1 g2 seen,
  ordered seen (g1 ++ g2) = ordered seen g1 && ordered (rev (keys_of g1) ++ seen) g2.
Proof.
  induction g1 as [|a g1 IH]; intros g2 seen.
  - reflexivity.
  - cbn [app ordered]. rewrite IH. rewrite keys_of_cons. cbn [rev].
    rewrite <- app_assoc. cbn [app]. rewrite !andb_assoc. reflexivity.
Qed.

(* what the certificate order says about one node of the list *)
Lemma ordered_split : forall {pre n post},
  ordered [] (pre ++ n :: post) = true ->
  ordered [] pre = true /\
  ~ In (g_key n) (keys_of pre) /\
  (forall d, In d (g_deps n) -> In d (keys_of pre)).
Proof.
  intros pre n post H. rewrite ordered_app, app_nil_r in H. cbn [ordered] in H.
  rewrite !andb_true_iff, negb_true_iff, memn_false_In, forallb_forall in H.
  destruct H as [Hpre [[Hk Hd] _]]. split; [exact Hpre|]. split.
  - rewrite in_rev. exact Hk.
  - intros d Hin. apply in_rev, memn_In, Hd, Hin.
Qed.

Lemma ordered_nodup : forall g seen, ordered seen g = true ->
  NoDup (keys_of g) /\ forall k, In k (keys_of g) -> ~ In k seen.
Proof.
  induction g as [|n r IH]; intros seen H.
  - split; [constructor|]. intros k [].
  - cbn [ordered] in H. rewrite !andb_true_iff, negb_true_iff, memn_false_In in H.
    destruct H as [[Hk _] Hr]. destruct (IH _ Hr) as [Hnd Hdis]. rewrite keys_of_cons. split.
    + constructor; [|exact Hnd]. intro Hin. apply (Hdis _ Hin). left. reflexivity.
    + intros k [<-|Hin]; [exact Hk|]. intro Hs. apply (Hdis _ Hin). right. exact Hs.
Qed.

Lemma ordered_closed : forall g, ordered [] g = true ->
  forall n d, In n g -> In d (g_deps n) -> In d (keys_of g).
Proof.
  intros g H n d Hn Hd. destruct (in_split _ _ Hn) as [pre [post ->]].
  destruct (ordered_split H) as [_ [_ Hdeps]].
  rewrite keys_of_app. apply in_or_app. left. apply Hdeps. exact Hd.
Qed.

(* position of a key in the list = its rank *)
Fixpoint idx (k : nat) (l : list nat) : nat :=
  match l with [] => 0 | x :: r => if k =? x then 0 else S (idx k r) end.

Lemma idx_prefix : forall d k l r, In d l -> ~ In k l -> idx d (l ++ r) < idx k (l ++ r).
Proof.
  induction l as [|x l IH]; intros r Hd Hk; [destruct Hd|]. cbn [app idx].
  destruct (Nat.eqb_spec k x) as [->|_]; [elim Hk; left; reflexivity|].
  destruct (Nat.eqb_spec d x) as [_|Hne]; [lia|].
  destruct Hd as [->|Hd]; [congruence|]. specialize (IH r Hd (fun H => Hk (or_intror H))). lia.
Qed.

Lemma wf_check_ordered : forall g outs, wf_check g outs = true -> ordered [] g = true.
Proof. unfold wf_check. intros g outs H. apply andb_true_iff in H. tauto. Qed.

Lemma wf_check_outs : forall g outs, wf_check g outs = true ->
  forall o, In o outs -> In o (keys_of g).
Proof.
  unfold wf_check. intros g outs H o Ho. apply andb_true_iff in H. destruct H as [_ H].
  rewrite forallb_forall in H. apply memn_In. apply H. exact Ho.
Qed.

Theorem wf_closed_acyclic : forall g outs, wf_check g outs = true ->
  NoDup (keys_of g) /\
  (forall n d, In n g -> In d (g_deps n) -> In d (keys_of g)) /\
  (exists rank : nat -> nat, forall n d, In n g -> In d (g_deps n) -> rank d < rank (g_key n)).
Proof.
  intros g outs H. apply wf_check_ordered in H. split; [|split].
  - apply (ordered_nodup g [] H).
  - apply ordered_closed. exact H.
  - exists (fun k => idx k (keys_of g)). intros n d Hn Hd.
    destruct (in_split _ _ Hn) as [pre [post ->]]. destruct (ordered_split H) as [_ [Hk Hdeps]].
    rewrite keys_of_app. apply idx_prefix; [apply Hdeps, Hd|exact Hk].
Qed.

(* node_of does not use the section variables of Graph.v *)
Lemma node_of_In : forall g k n, node_of g k = Some n -> In n g /\ g_key n = k.
Proof.
  induction g as [|m r IH]; intros k n H; [discriminate|].
  cbn [node_of] in H. destruct (k =? g_key m) eqn:E.
  - inversion H; subst. apply Nat.eqb_eq in E. split; [left; reflexivity|congruence].
  - destruct (IH _ _ H). split; [right; assumption|assumption].
Qed.

Lemma node_of_app_notin : forall pre r k, ~ In k (keys_of pre) -> node_of (pre ++ r) k = node_of r k.
Proof.
  induction pre as [|m pre IH]; intros r k H; [reflexivity|].
  cbn [app node_of]. rewrite keys_of_cons in H. destruct (Nat.eqb_spec k (g_key m)) as [E|_].
  - elim H. left. symmetry. exact E.
  - apply IH. intro Hin. apply H. right. exact Hin.
Qed.

Lemma node_of_mid : forall pre n post, ~ In (g_key n) (keys_of pre) ->
  node_of (pre ++ n :: post) (g_key n) = Some n.
Proof.
  intros. rewrite node_of_app_notin by assumption. cbn [node_of]. rewrite Nat.eqb_refl. reflexivity.
Qed.

Section SchedProofs.
  Variable V : Type.
  Variable dV : V.
  Variable fn : nat -> list V -> V.

  Local Notation store := (store V).
  Local Notation lookup := (lookup V).
  Local Notation get := (get V dV).
  Local Notation has := (has V).
  Local Notation ready := (ready V).
  Local Notation fire := (fire V dV fn).
  Local Notation run := (run V dV fn).
  Local Notation complete := (complete V).
  Local Notation canon := (canon V dV fn).

  Lemma has_lookup : forall (st : store) k, has st k = true <-> exists v, lookup k st = Some v.
  Proof.
    intros st k. unfold Graph.has. destruct (lookup k st) as [v|]; split; eauto; [discriminate|].
    intros [v Hv]. discriminate.
  Qed.

  Lemma has_In : forall (st : store) k, has st k = true <-> In k (map fst st).
  Proof.
    intros st k. unfold Graph.has. induction st as [|[k' v] r IH]; cbn [Graph.lookup map fst In].
    - split; [discriminate|tauto].
    - destruct (Nat.eqb_spec k k') as [->|Hne]; [|rewrite IH]; intuition congruence.
  Qed.

  Lemma get_cons_neq : forall (st : store) k k' v, k <> k' -> get ((k', v) :: st) k = get st k.
  Proof.
    intros st k k' v H. unfold Graph.get. cbn [Graph.lookup].
    apply Nat.eqb_neq in H. rewrite H. reflexivity.
  Qed.

  Lemma canon_snoc : forall g n,
    canon (g ++ [n]) = (g_key n, fn (g_key n) (map (get (canon g)) (g_deps n))) :: canon g.
  Proof. intros. unfold Graph.canon. rewrite fold_left_app. reflexivity. Qed.

  Lemma canon_keys : forall g, map fst (canon g) = rev (keys_of g).
  Proof.
    induction g as [|n g IH] using rev_ind; [reflexivity|].
    rewrite canon_snoc, keys_of_app, rev_app_distr. cbn. rewrite IH. reflexivity.
  Qed.

  Lemma has_canon : forall g k, has (canon g) k = true <-> In k (keys_of g).
  Proof. intros. rewrite has_In, canon_keys. symmetry. apply in_rev. Qed.

  (* characterisation of the canonical store: every node holds fn applied to the canonical
     values of its dependencies *)
  Lemma canon_char : forall g, ordered [] g = true -> forall n, In n g ->
    lookup (g_key n) (canon g) = Some (fn (g_key n) (map (get (canon g)) (g_deps n))).
  Proof.
    induction g as [|x g IH] using rev_ind; intros Hord n Hn; [destruct Hn|].
    destruct (ordered_split Hord) as [Hg [Hkx Hdx]].
    (* the dependencies lie in g, where the value of the new node x is not seen *)
    replace (map (get (canon (g ++ [x]))) (g_deps n)) with (map (get (canon g)) (g_deps n)).
    - rewrite canon_snoc. cbn [Graph.lookup]. apply in_app_or in Hn as [Hn|[<-|[]]].
      + rewrite (proj2 (Nat.eqb_neq _ _)); [exact (IH Hg n Hn)|].
        intro E. apply Hkx. rewrite <- E. apply in_keys_of. exact Hn.
      + rewrite Nat.eqb_refl. reflexivity.
    - apply map_ext_in. intros d Hd. rewrite canon_snoc. symmetry. apply get_cons_neq.
      intros ->. apply Hkx. apply in_app_or in Hn as [Hn|[<-|[]]]; [|apply Hdx, Hd].
      eapply ordered_closed; eassumption.
  Qed.

  (* the invariant of run *)
  Definition agrees (g : graph) (st : store) : Prop :=
    forall k v, lookup k st = Some v -> lookup k (canon g) = Some v.

  Lemma fire_agrees : forall g st k st', ordered [] g = true ->
    agrees g st -> fire g st k = Some st' -> agrees g st'.
  Proof.
    intros g st k st' Hord Hinv Hf. unfold Graph.fire, Graph.ready in Hf.
    destruct (node_of g k) as [n|] eqn:En; [|discriminate].
    destruct (node_of_In _ _ _ En) as [Hn <-].
    destruct (negb _ && forallb _ _) eqn:Er; [|discriminate]. injection Hf as <-.
    apply andb_true_iff in Er as [_ Hdeps]. rewrite forallb_forall in Hdeps.
    intros k' v Hl. cbn [Graph.lookup] in Hl. destruct (Nat.eqb_spec k' (g_key n)) as [->|_]; [|apply Hinv, Hl].
    injection Hl as <-. rewrite (canon_char _ Hord n Hn). f_equal. f_equal.
    (* a dependency has a value in st, hence the canonical one *)
    apply map_ext_in. intros d Hd. apply Hdeps, has_lookup in Hd as [w Hw].
    unfold Graph.get. rewrite (Hinv _ _ Hw), Hw. reflexivity.
  Qed.

  Lemma run_agrees : forall g, ordered [] g = true ->
    forall ks st st', agrees g st -> run g st ks = Some st' -> agrees g st'.
  Proof.
    intros g Hord ks. induction ks as [|k r IH]; intros st st' Hinv Hr; cbn [Graph.run] in Hr.
    - injection Hr as <-. exact Hinv.
    - destruct (fire g st k) as [st1|] eqn:Ef; [|discriminate].
      exact (IH _ _ (fire_agrees _ _ _ _ Hord Hinv Ef) Hr).
  Qed.

  Theorem determinacy : forall (g : graph) outs ks st,
    wf_check g outs = true -> run g [] ks = Some st ->
    forall k v, lookup k st = Some v -> lookup k (canon g) = Some v.
  Proof.
    intros g outs ks st Hwf Hr. apply wf_check_ordered in Hwf.
    change (agrees g st). eapply run_agrees; [exact Hwf| |exact Hr].
    intros k v H. discriminate.
  Qed.

  Lemma complete_has : forall g (st : store), complete g st = true ->
    forall k, In k (keys_of g) -> exists v, lookup k st = Some v.
  Proof.
    intros g st H k Hk. unfold Graph.complete in H. rewrite forallb_forall in H.
    apply has_lookup. apply H. exact Hk.
  Qed.

  Theorem complete_run_canon : forall g outs ks st,
    wf_check g outs = true -> run g [] ks = Some st -> complete g st = true ->
    forall k, In k (keys_of g) -> lookup k st = lookup k (canon g).
  Proof.
    intros g outs ks st Hwf Hr Hc k Hk.
    destruct (complete_has _ _ Hc k Hk) as [v Hv].
    rewrite Hv. symmetry. eapply determinacy; eauto.
  Qed.

  Theorem complete_runs_agree : forall g outs ks1 ks2 st1 st2,
    wf_check g outs = true -> run g [] ks1 = Some st1 -> run g [] ks2 = Some st2 ->
    complete g st1 = true -> complete g st2 = true ->
    forall k, In k (keys_of g) -> lookup k st1 = lookup k st2.
  Proof.
    intros g outs ks1 ks2 st1 st2 Hwf H1 H2 C1 C2 k Hk.
    rewrite (complete_run_canon _ _ _ _ Hwf H1 C1 k Hk).
    rewrite (complete_run_canon _ _ _ _ Hwf H2 C2 k Hk). reflexivity.
  Qed.

  Lemma ready_mid : forall pre n post (st : store), ordered [] (pre ++ n :: post) = true ->
    (forall k, In k (keys_of pre) -> has st k = true) -> has st (g_key n) = false ->
    ready (pre ++ n :: post) st (g_key n) = true.
  Proof.
    intros pre n post st Hord Hpre Hn. destruct (ordered_split Hord) as [_ [Hk Hdeps]].
    unfold Graph.ready. rewrite (node_of_mid _ _ _ Hk), Hn.
    apply forallb_forall. intros d Hd. apply Hpre, Hdeps, Hd.
  Qed.

  (* progress holds in ANY incomplete state of a well-formed graph (reachable or not): the first
     node, in list order, whose key has no value yet is ready *)
  Lemma progress_from : forall (st : store) post pre, ordered [] (pre ++ post) = true ->
    (forall k, In k (keys_of pre) -> has st k = true) -> forallb (has st) (keys_of post) = false ->
    exists k, ready (pre ++ post) st k = true.
  Proof.
    intros st. induction post as [|n post IH]; intros pre Hord Hpre Hc; [discriminate|].
    cbn [keys_of map forallb] in Hc. destruct (has st (g_key n)) eqn:En.
    - replace (pre ++ n :: post) with ((pre ++ [n]) ++ post) in * by (rewrite <- app_assoc; reflexivity).
      apply IH; [exact Hord| |exact Hc].
      intros k Hk. rewrite keys_of_app in Hk. apply in_app_or in Hk as [Hk|[<-|[]]]; auto.
    - exists (g_key n). apply ready_mid; assumption.
  Qed.

  Lemma progress_any : forall g (st : store), ordered [] g = true -> complete g st = false ->
    exists k, ready g st k = true.
  Proof. intros g st Hord Hc. apply (progress_from st g [] Hord); [intros k []|exact Hc]. Qed.

  Theorem progress : forall g outs ks st,
    wf_check g outs = true -> run g [] ks = Some st -> complete g st = false ->
    exists k, ready g st k = true.
  Proof.
    intros g outs ks st Hwf _ Hc. apply progress_any; [|exact Hc].
    eapply wf_check_ordered; eauto.
  Qed.

  (* a ready task can actually be fired, so progress is a real step *)
  Lemma ready_fire : forall g st k, ready g st k = true -> exists st', fire g st k = Some st'.
  Proof.
    intros g st k H. unfold Graph.fire. pose proof H as H'. unfold Graph.ready in H'.
    destruct (node_of g k) as [n|]; [|discriminate]. rewrite H. eexists. reflexivity.
  Qed.

  Lemma run_app : forall g ks1 ks2 st,
    run g st (ks1 ++ ks2) = match run g st ks1 with Some st' => run g st' ks2 | None => None end.
  Proof.
    intros g. induction ks1 as [|k r IH]; intros ks2 st; [reflexivity|].
    cbn [app Graph.run]. destruct (fire g st k); [apply IH|reflexivity].
  Qed.

  Lemma canon_prefix_run : forall pre post, ordered [] (pre ++ post) = true ->
    run (pre ++ post) [] (keys_of pre) = Some (canon pre).
  Proof.
    induction pre as [|n pre IH] using rev_ind; intros post Hord; [reflexivity|].
    rewrite <- app_assoc in *. cbn [app] in *.
    rewrite keys_of_app, run_app, (IH _ Hord).
    destruct (ordered_split Hord) as [_ [Hk _]].
    assert (Hr : ready (pre ++ n :: post) (canon pre) (g_key n) = true).
    { apply ready_mid; [exact Hord|apply has_canon|]. apply not_true_iff_false. rewrite has_canon. exact Hk. }
    cbn [keys_of map Graph.run]. unfold Graph.fire. rewrite (node_of_mid _ _ _ Hk), Hr, canon_snoc. reflexivity.
  Qed.

  (* the list order is a valid complete schedule; every requested output gets a value *)
  Theorem canon_schedule : forall g outs, wf_check g outs = true ->
    run g [] (keys_of g) = Some (canon g) /\ complete g (canon g) = true /\
    forall o, In o outs -> has (canon g) o = true.
  Proof.
    intros g outs Hwf. split; [|split].
    - pose proof (canon_prefix_run g [] ) as H. rewrite app_nil_r in H. apply H.
      eapply wf_check_ordered; eauto.
    - unfold Graph.complete. apply forallb_forall. intros k Hk. apply has_canon. exact Hk.
    - intros o Ho. apply has_canon. eapply wf_check_outs; eauto.
  Qed.

  (* executing the same graph twice, under whatever two schedules the
     workers happen to produce, yields the same value for every requested output *)
  Corollary repeatability : forall g outs ks1 ks2 st1 st2,
    wf_check g outs = true -> run g [] ks1 = Some st1 -> run g [] ks2 = Some st2 ->
    complete g st1 = true -> complete g st2 = true ->
    forall o, In o outs ->
      lookup o st1 = lookup o st2 /\ get st1 o = get st2 o /\ has st1 o = true.
  Proof.
    intros g outs ks1 ks2 st1 st2 Hwf H1 H2 C1 C2 o Ho.
    pose proof (wf_check_outs _ _ Hwf o Ho) as Hk.
    pose proof (complete_runs_agree _ _ _ _ _ _ Hwf H1 H2 C1 C2 o Hk) as E.
    split; [exact E|]. split.
    - unfold Graph.get. rewrite E. reflexivity.
    - apply has_lookup. eapply complete_has; eauto.
  Qed.

  (* any schedule can be extended: from a reachable incomplete state one more task can be committed *)
  Corollary no_deadlock_step : forall g outs ks st,
    wf_check g outs = true -> run g [] ks = Some st -> complete g st = false ->
    exists k st', run g [] (ks ++ [k]) = Some st'.
  Proof.
    intros g outs ks st Hwf Hr Hc. destruct (progress _ _ _ _ Hwf Hr Hc) as [k Hk].
    destruct (ready_fire _ _ _ Hk) as [st' Hf]. exists k, st'.
    rewrite run_app, Hr. cbn [Graph.run]. rewrite Hf. reflexivity.
  Qed.
End SchedProofs.

(* non-vacuity: a diamond graph  0 -> {1,2} -> 3 *)
Definition diamond : graph :=
  [ {| g_key := 0; g_deps := [] |};
    {| g_key := 1; g_deps := [0] |};
    {| g_key := 2; g_deps := [0] |};
    {| g_key := 3; g_deps := [1; 2] |} ].
(* each task: 10 * key + 1 + sum of its inputs (so values depend on key and on inputs) *)
Definition dfn (k : nat) (vs : list nat) : nat := 10 * k + 1 + sumN vs.

Example diamond_wf : wf_check diamond [3] = true.
Proof. reflexivity. Qed.

Example diamond_two_schedules :
  exists st1 st2,
    run nat 0 dfn diamond [] [0; 1; 2; 3] = Some st1 /\
    run nat 0 dfn diamond [] [0; 2; 1; 3] = Some st2 /\
    complete nat diamond st1 = true /\ complete nat diamond st2 = true /\
    st1 <> st2 /\                                  (* different commit orders ... *)
    lookup nat 3 st1 = Some 65 /\ lookup nat 3 st2 = Some 65.   (* ... same values *)
Proof.
  eexists. eexists.
  split; [vm_compute; reflexivity|]. split; [vm_compute; reflexivity|].
  split; [reflexivity|]. split; [reflexivity|]. split; [discriminate|].
  split; reflexivity.
Qed.

(* a schedule that violates the dependencies is rejected, and a cyclic / dangling graph fails the check *)
Example diamond_bad_schedule : run nat 0 dfn diamond [] [0; 3; 1; 2] = None.
Proof. reflexivity. Qed.
Example cyclic_rejected :
  wf_check [ {| g_key := 0; g_deps := [1] |}; {| g_key := 1; g_deps := [0] |} ] [1] = false.
Proof. reflexivity. Qed.
Example diamond_agree : forall k, In k (keys_of diamond) ->
  lookup nat k (canon nat 0 dfn diamond) =
  match run nat 0 dfn diamond [] [0; 2; 1; 3] with Some st => lookup nat k st | None => None end.
Proof.
  intros k Hk. cbn in Hk. destruct Hk as [<-|[<-|[<-|[<-|[]]]]]; reflexivity.
Qed.

Print Assumptions determinacy.
Print Assumptions complete_runs_agree.
Print Assumptions progress.
Print Assumptions canon_schedule.
Print Assumptions repeatability.
Print Assumptions wf_closed_acyclic.
Print Assumptions no_deadlock_step.
Print Assumptions diamond_two_schedules.

(* RepartProofs.v -- soundness of a plan checker for RepartitionDivisions plans, and completeness of the
   checker on every plan `repart_plan` generates from valid divisions (with or without `force`). *)
From DX Require Import Base ListFacts Repart RepartFacts.
From Coq Require Import ZifyBool.
Open Scope Z_scope.

(* Intervals  [lo, h)  or  [lo, h]  (c = true).  No use of the discreteness of Z is made: the upper end is the
   pair (h, c) ordered lexicographically. *)
Definition ivl := (Z * (Z * bool))%type.
Definition memb (I : ivl) (x : Z) : bool :=
  let '(lo, (h, c)) := I in (lo <=? x) && ((x <? h) || (c && (x =? h))).
Definition ivl_of (s : slice) : ivl := (s_lo s, (s_hi s, s_closed s)).
Definition tgt (b : list Z) (j : nat) : ivl :=
  (nthZ b j, (nthZ b (S j), (S (S j) =? length b)%nat)).
Definition ub_le (u1 u2 : Z * bool) : bool :=
  let '(h1, c1) := u1 in let '(h2, c2) := u2 in (h1 <? h2) || ((h1 =? h2) && implb c1 c2).
Definition ub_min (u1 u2 : Z * bool) : Z * bool := if ub_le u1 u2 then u1 else u2.
Definition inter (I J : ivl) : ivl := (Z.max (fst I) (fst J), ub_min (snd I) (snd J)).
Definition iempty (I : ivl) : bool :=
  let '(lo, (h, c)) := I in (h <? lo) || ((h =? lo) && negb c).
Definition ieq (I J : ivl) : bool :=
  (iempty I && iempty J) ||
  ((fst I =? fst J) && (fst (snd I) =? fst (snd J)) && Bool.eqb (snd (snd I)) (snd (snd J))).

Definition dslice : slice := {| s_src := 0; s_lo := 0; s_hi := 0; s_closed := false |}.
Definition getS (sl : list slice) (k : nat) : slice := nth k sl dslice.

Definition ks_of (o : outp) : list nat :=
  match o with ODummy => [] | OAlias k => [k] | OConcat ks => ks end.

Fixpoint eqb_nats (l1 l2 : list nat) : bool :=
  match l1, l2 with
  | [], [] => true
  | x :: r1, y :: r2 => (x =? y)%nat && eqb_nats r1 r2
  | _, _ => false
  end.

Definition empty_ivl : ivl := (0, (0, false)).

(* a chain of slices  [c0,c1) [c1,c2) ... [c_{m-1}, c_m)|]  with c0 <= c1 <= ... <= c_m;
   only the last one may be closed *)
Fixpoint chain_ok (ss : list slice) : bool :=
  match ss with
  | [] => true
  | s :: r =>
      (s_lo s <=? s_hi s) &&
      match r with
      | [] => true
      | s2 :: _ => negb (s_closed s) && (s_hi s =? s_lo s2) && chain_ok r
      end
  end.
(* the interval a chain covers *)
Fixpoint hull (ss : list slice) : ivl :=
  match ss with
  | [] => empty_ivl
  | s :: r => match r with [] => ivl_of s | _ :: _ => (s_lo s, snd (hull r)) end
  end.

(* the slice numbers of one output that read source partition i, in plan order *)
Definition group (sl : list slice) (ks : list nat) (i : nat) : list nat :=
  filter (fun k => (s_src (getS sl k) =? i)%nat) ks.

(* on source partition i (index range  tgt a i) the chain must select exactly the target range *)
Definition check_src (a b : list Z) (sl : list slice) (j : nat) (ks : list nat) (i : nat) : bool :=
  let ss := map (getS sl) (group sl ks i) in
  chain_ok ss && ieq (inter (hull ss) (tgt a i)) (inter (tgt b j) (tgt a i)).

(* output j: its slice list is the concatenation of its per-source groups, sources 0..n-1 in
   order (so every slice has s_src < n and the sources are non-decreasing), and every group is ok *)
Definition check_out (a b : list Z) (sl : list slice) (j : nat) (ks : list nat) : bool :=
  let n := (length a - 1)%nat in
  eqb_nats (concat (map (group sl ks) (seq 0 n))) ks &&
  forallb (check_src a b sl j ks) (seq 0 n).

Definition plan_ok (a b : list Z) (pl : plan) : bool :=
  (length (p_outs pl) =? length b - 1)%nat &&
  forallb (fun j => check_out a b (p_slices pl) j (ks_of (nth j (p_outs pl) ODummy)))
          (seq 0 (length b - 1)).

Lemma in_slice_memb : forall s x, in_slice s x = memb (ivl_of s) x.
Proof. reflexivity. Qed.
Lemma in_target_memb : forall b j x, in_target b j x = memb (tgt b j) x.
Proof. reflexivity. Qed.

Lemma memb_empty : forall x, memb empty_ivl x = false.
Proof. intros x. unfold memb, empty_ivl. lia. Qed.

Lemma memb_inter : forall I J x, memb (inter I J) x = memb I x && memb J x.
Proof.
  intros [l1 [h1 c1]] [l2 [h2 c2]] x. unfold inter, memb, ub_min. cbn [fst snd].
  destruct (ub_le (h1, c1) (h2, c2)) eqn:E; unfold ub_le in E; lia.
Qed.

Lemma iempty_sound : forall I x, iempty I = true -> memb I x = false.
Proof. intros [lo [h c]] x. unfold iempty, memb. lia. Qed.

Lemma ieq_sound : forall I J x, ieq I J = true -> memb I x = memb J x.
Proof.
  intros [l1 [h1 c1]] [l2 [h2 c2]] x. unfold ieq, iempty, memb. cbn [fst snd]. lia.
Qed.

Lemma ieq_inter_sound : forall H B A x,
  ieq (inter H A) (inter B A) = true -> memb A x = true -> memb H x = memb B x.
Proof.
  intros H B A x He HA. pose proof (ieq_sound _ _ x He) as E.
  rewrite !memb_inter, HA, !andb_true_r in E. exact E.
Qed.

(* what the generator side needs: the checker compares  hull ∩ A  with  B ∩ A,  and the hull of a generated
   group is  B ∩ A'  for an interval  A'  that contains  A  (or the group is empty, and so is  B ∩ A') *)
Lemma ieq_refl : forall I, ieq I I = true.
Proof. intros [l [h c]]. unfold ieq. cbn [fst snd]. lia. Qed.

Lemma ieq_empty : forall I J, iempty I = true -> iempty J = true -> ieq I J = true.
Proof. intros I J HI HJ. unfold ieq. rewrite HI, HJ. reflexivity. Qed.

Lemma iempty_inter_l : forall I J, iempty I = true -> iempty (inter I J) = true.
Proof.
  intros [l1 [h1 c1]] [l2 [h2 c2]]. unfold inter, iempty, ub_min. cbn [fst snd].
  destruct (ub_le (h1, c1) (h2, c2)) eqn:E; unfold ub_le in E; lia.
Qed.

Lemma ub_min_assoc : forall u1 u2 u3, ub_min (ub_min u1 u2) u3 = ub_min u1 (ub_min u2 u3).
Proof.
  intros [h1 c1] [h2 c2] [h3 c3]. unfold ub_min.
  destruct (ub_le (h1, c1) (h2, c2)) eqn:E12, (ub_le (h2, c2) (h3, c3)) eqn:E23; rewrite ?E12, ?E23;
    try reflexivity; destruct (ub_le (h1, c1) (h3, c3)) eqn:E13; try reflexivity; unfold ub_le in *; lia.
Qed.

Lemma inter_assoc : forall I J K, inter (inter I J) K = inter I (inter J K).
Proof.
  intros [l1 u1] [l2 u2] [l3 u3]. unfold inter. cbn [fst snd]. rewrite ub_min_assoc, Z.max_assoc. reflexivity.
Qed.

Lemma inter_absorb : forall l u lj uj, l <= lj -> ub_le uj u = true -> inter (l, u) (lj, uj) = (lj, uj).
Proof.
  intros l [h c] lj [hj cj] Hl Hu. unfold inter, ub_min. cbn [fst snd]. f_equal; [lia|].
  destruct (ub_le (h, c) (hj, cj)) eqn:E; [|reflexivity]. unfold ub_le in *. f_equal; lia.
Qed.

Lemma eqb_nats_sound : forall l1 l2, eqb_nats l1 l2 = true -> l1 = l2.
Proof.
  induction l1 as [|x l1 IH]; intros [|y l2] H; cbn [eqb_nats] in H; try discriminate; [reflexivity|].
  apply andb_true_iff in H. destruct H as [H1 H2]. apply Nat.eqb_eq in H1. subst. f_equal. apply IH, H2.
Qed.

Lemma chain_ok_cons2 : forall s s2 r,
  chain_ok (s :: s2 :: r) =
  (s_lo s <=? s_hi s) && (negb (s_closed s) && (s_hi s =? s_lo s2) && chain_ok (s2 :: r)).
Proof. reflexivity. Qed.
Lemma hull_cons2 : forall s s2 r, hull (s :: s2 :: r) = (s_lo s, snd (hull (s2 :: r))).
Proof. reflexivity. Qed.

Section Sound.
  Variable row : Type.
  Variable idx : row -> Z.

  (* on an index-sorted partition, slicing by two ordered disjoint ranges and concatenating is slicing by their union *)
  Lemma filter_app_sorted : forall (f1 f2 f12 : row -> bool),
    (forall x y, f1 x = true -> f2 y = true -> idx x < idx y) ->
    (forall x, f12 x = f1 x || f2 x) ->
    forall p, sortedZ (map idx p) -> filter f1 p ++ filter f2 p = filter f12 p.
  Proof.
    intros f1 f2 f12 Hord H12. induction p as [|r p IH]; intros Hs; [reflexivity|].
    cbn [map] in Hs. apply sorted_cons_iff in Hs. destruct Hs as [Hhd Hs].
    specialize (IH Hs). cbn [filter]. rewrite (H12 r).
    destruct (f1 r) eqn:E1, (f2 r) eqn:E2; cbn [orb app].
    - pose proof (Hord _ _ E1 E2). lia.
    - f_equal. exact IH.
    - rewrite <- IH. rewrite (filter_false f1 p); [reflexivity|].
      intros y Hy. destruct (f1 y) eqn:E; [|reflexivity].
      pose proof (Hord _ _ E E2). pose proof (Hhd _ (in_map idx p y Hy)). lia.
    - exact IH.
  Qed.

  Lemma hull_wf : forall r s, chain_ok (s :: r) = true ->
    fst (hull (s :: r)) = s_lo s /\ s_lo s <= fst (snd (hull (s :: r))).
  Proof.
    induction r as [|s2 r IH]; intros s H.
    - cbn [chain_ok hull ivl_of fst snd] in *. lia.
    - rewrite chain_ok_cons2 in H. rewrite hull_cons2. cbn [fst snd].
      destruct (IH s2) as [_ IH2]; lia.
  Qed.

  Lemma chain_sound : forall p, sortedZ (map idx p) ->
    forall ss, chain_ok ss = true ->
    flat_map (fun s => filter (fun r => in_slice s (idx r)) p) ss
    = filter (fun r => memb (hull ss) (idx r)) p.
  Proof.
    intros p Hs. induction ss as [|s [|s2 r] IH]; intros H.
    - symmetry. apply filter_false. intros x _. apply memb_empty.
    - cbn [flat_map hull]. apply app_nil_r.
    - rewrite chain_ok_cons2 in H. destruct (hull_wf r s2) as [W1 W2]; [lia|].
      cbn [flat_map] in *. rewrite IH by lia. rewrite hull_cons2.
      destruct (hull (s2 :: r)) as [lo2 [h2 c2]]. cbn [fst snd] in *.
      apply filter_app_sorted; [| |exact Hs].
      + intros x y. unfold in_slice, memb. lia.
      + intros x. unfold in_slice, memb. lia.
  Qed.

  Lemma exec_slice_dslice : forall P, exec_slice idx P dslice = [].
  Proof.
    intros P. unfold exec_slice. apply filter_false. intros x _.
    rewrite in_slice_memb. apply memb_empty.
  Qed.

  Lemma exec_get : forall P sl k,
    match nth_error sl k with Some s => exec_slice idx P s | None => [] end = exec_slice idx P (getS sl k).
  Proof.
    intros P sl k. unfold getS. destruct (nth_error sl k) as [s|] eqn:E.
    - rewrite (nth_error_nth sl k dslice E). reflexivity.
    - apply nth_error_None in E. rewrite (nth_overflow sl dslice E). symmetry. apply exec_slice_dslice.
  Qed.

  Lemma exec_out_ks : forall P sl o,
    exec_out idx P sl o = flat_map (fun k => exec_slice idx P (getS sl k)) (ks_of o).
  Proof.
    intros P sl [|k|ks]; cbn [exec_out ks_of flat_map].
    - reflexivity.
    - rewrite app_nil_r. apply exec_get.
    - apply flat_map_ext_in. intros k _. apply exec_get.
  Qed.

  Lemma spec_out_decomp : forall b P j,
    spec_out idx b P j
    = flat_map (fun i => filter (fun r => memb (tgt b j) (idx r)) (nth i P [])) (seq 0 (length P)).
  Proof.
    intros b P j. unfold spec_out. rewrite <- (concat_nth_seq P) at 1. rewrite filter_flat_map. reflexivity.
  Qed.

  Lemma check_out_sound : forall a b sl j ks P,
    respects idx a P -> parts_sorted idx P ->
    check_out a b sl j ks = true ->
    flat_map (fun k => exec_slice idx P (getS sl k)) ks = spec_out idx b P j.
  Proof.
    intros a b sl j ks P [Hlen Hresp] Hsort Hc.
    unfold check_out in Hc. apply andb_true_iff in Hc. destruct Hc as [Hg Hall].
    apply eqb_nats_sound in Hg. rewrite forallb_forall in Hall.
    rewrite spec_out_decomp, Hlen.
    transitivity (flat_map (fun k => exec_slice idx P (getS sl k))
                           (concat (map (group sl ks) (seq 0 (length a - 1))))).
    { f_equal. symmetry. exact Hg. }
    rewrite flat_map_concat, flat_map_map.
    apply flat_map_ext_in. intros i Hi.
    specialize (Hall i Hi). unfold check_src in Hall. apply andb_true_iff in Hall. destruct Hall as [Hch Heq].
    transitivity (flat_map (fun s => filter (fun r => in_slice s (idx r)) (nth i P []))
                           (map (getS sl) (group sl ks i))).
    { rewrite flat_map_map. apply flat_map_ext_in. intros k Hk.
      unfold group in Hk. apply filter_In in Hk. destruct Hk as [_ Hk]. apply Nat.eqb_eq in Hk.
      unfold exec_slice. rewrite Hk. reflexivity. }
    assert (Hsi : sortedZ (map idx (nth i P []))).
    { apply in_seq in Hi. apply Hsort. apply nth_In. lia. }
    rewrite (chain_sound _ Hsi _ Hch).
    apply filter_ext_in. intros r Hr.
    apply ieq_inter_sound with (A := tgt a i); [exact Heq|].
    rewrite <- in_target_memb. apply Hresp. exact Hr.
  Qed.

  Theorem plan_ok_sound : forall (a b : list Z) (pl : plan) (P : list (list row)),
    valid_divs a = true -> valid_divs b = true ->
    plan_ok a b pl = true ->
    respects idx a P -> parts_sorted idx P ->
    exec_plan idx P pl = spec_plan idx b P.
  Proof.
    intros a b [sl outs] P _ _ Hok Hresp Hsort.
    unfold plan_ok in Hok. cbn [p_outs p_slices] in Hok.
    apply andb_true_iff in Hok. destruct Hok as [Hlen Hall]. apply Nat.eqb_eq in Hlen.
    rewrite forallb_forall in Hall.
    unfold exec_plan, spec_plan. cbn [p_outs p_slices].
    transitivity (map (exec_out idx P sl) (map (fun j => nth j outs ODummy) (seq 0 (length outs)))).
    { f_equal. symmetry. apply (map_nth_seq ODummy outs). }
    rewrite map_map, Hlen. apply map_ext_in. intros j Hj.
    rewrite exec_out_ks. apply (check_out_sound a b sl j _ P Hresp Hsort). apply Hall. exact Hj.
  Qed.
End Sound.

(* a function that increases strictly on 0..k: the order of the values is the order of the indices *)
Section Mono.
  Variable f : nat -> Z.
  Variable k : nat.
  Hypothesis Hadj : forall t, (t < k)%nat -> f t < f (S t).
  Lemma mono_lt : forall t' t, (t < t')%nat -> (t' <= k)%nat -> f t < f t'.
  Proof.
    induction t' as [|t' IH]; intros t Hlt Hle; [lia|].
    destruct (Nat.eq_dec t t') as [->|Hne]; [apply Hadj; lia|].
    pose proof (IH t ltac:(lia) ltac:(lia)). pose proof (Hadj t' ltac:(lia)). lia.
  Qed.
  Lemma mono_lt_iff : forall t t', (t <= k)%nat -> (t' <= k)%nat -> (f t < f t' <-> (t < t')%nat).
  Proof.
    intros t t' Hk Hk'. split; [|intros H; apply mono_lt; assumption].
    intros H. destruct (lt_eq_lt_dec t t') as [[Hlt| ->]|Hgt]; [exact Hlt|lia|].
    pose proof (mono_lt t t' Hgt Hk). lia.
  Qed.
End Mono.

Lemma skipn_eq_cons : forall {j} {l : list Z} {x r}, skipn j l = x :: r -> nthZ l j = x /\ skipn (S j) l = r.
Proof.
  induction j as [|j IH]; intros [|z l] x r H; try discriminate H.
  - injection H as -> ->. split; reflexivity.
  - exact (IH l x r H).
Qed.

(* with `force` the new divisions may start below a_0; the slices below a_1 all read source 0, as if a_0 were b_0 *)
Definition al (a b : list Z) (i : nat) : Z := if (i =? 0)%nat then nthZ b 0 else nthZ a i.

Lemma al_S : forall a b i, (1 <= i)%nat -> al a b i = nthZ a i.
Proof. intros a b i Hi. unfold al. destruct (Nat.eqb_spec i 0); [lia|reflexivity]. Qed.

Lemma al_almost_incr : forall a b,
  almost_incr (nthZ a) (length a) -> nthZ b 0 <= nthZ a 0 -> almost_incr (al a b) (length a).
Proof.
  intros a b (HN & H1 & H2) H0. split; [exact HN|]. split.
  - intros [|t] Ht; [|rewrite !al_S by lia; apply H1, Ht].
    pose proof (H1 0%nat Ht). rewrite (al_S a b 1) by lia. unfold al. cbn [Nat.eqb]. lia.
  - rewrite (al_S a b (length a - 1)) by lia. unfold al.
    destruct (Nat.eqb_spec (length a - 2) 0) as [E|NE]; [|exact H2]. rewrite E in H2. lia.
Qed.

(* slice t of d is [c_t, c_{t+1}) and starts inside the range A(src) .. A(src+1) of its source (the last source is
   open to the right: it also serves what lies beyond the last value of a) *)
Definition sl_ok (A : nat -> Z) (N : nat) (c : list Z) (t : nat) (s : slice) : Prop :=
  s_lo s = nthZ c t /\ s_hi s = nthZ c (S t) /\ s_closed s = false /\
  (S (s_src s) < N)%nat /\ A (s_src s) <= nthZ c t /\ ((S (S (s_src s)) < N)%nat -> nthZ c t < A (S (s_src s))).

(* the loop treats a and b alike.  The cursor i into f = l[0..N): every value before i has been emitted into c,
   and the last emitted value low lies in [f(i-1), f(i)].  low = f(i) happens only for a repeated last value
   (low = f(i-1)), or on the b side while the other cursor waits on its own repeated last value (`wait`).
   The positions leave room for one entry of c per later value, so a repeated value owns a point slice. *)
Definition track (f : nat -> Z) (N i : nat) (low : Z) (c : list Z) (wait : Prop) : Prop :=
  (1 <= i <= N)%nat /\ f (i - 1)%nat <= low /\
  ((i < N)%nat -> low <= f i /\ (low = f i -> low = f (i - 1)%nat \/ wait)) /\
  forall i', (i' < i)%nat -> exists t, (t + (i - i') <= length c)%nat /\ nthZ c t = f i'.

Lemma track_stay : forall {f N i low c w w' x},
  track f N i low c w -> low <= x ->
  ((i < N)%nat -> x <= f i /\ (x = f i -> x = f (i - 1)%nat \/ w')) -> track f N i x (c ++ [x]) w'.
Proof.
  intros f N i low c w w' x (Hi & Hlo & _ & Hin) Hx Hxl. unfold track.
  split; [exact Hi|]. split; [lia|]. split; [exact Hxl|].
  intros i' Hi'. destruct (Hin i' Hi') as [t [Ht E]]. exists t. rewrite app_length, nthZ_app1 by lia.
  split; [lia|exact E].
Qed.

Lemma track_next : forall {f N i low c w w'}, almost_incr f N ->
  track f N i low c w -> (i < N)%nat -> track f N (S i) (f i) (c ++ [f i]) w'.
Proof.
  intros f N i low c w w' Hv (Hi & _ & _ & Hin) Hil. unfold track. replace (S i - 1)%nat with i by lia.
  split; [lia|]. split; [lia|]. split.
  - intros Hn. split; [apply (almost_incr_le Hv); lia|]. intros _. left. reflexivity.
  - intros i' Hi'. rewrite app_length. cbn [length]. destruct (Nat.eq_dec i' i) as [->|Hne].
    + exists (length c). split; [lia|apply nthZ_snoc].
    + destruct (Hin i' ltac:(lia)) as [t [Ht E]]. exists t. rewrite nthZ_app1 by lia. split; [lia|exact E].
Qed.

Lemma track_init : forall {f N w}, almost_incr f N -> track f N 1 (f 0%nat) [f 0%nat] w.
Proof.
  intros f N w Hv. pose proof (almost_incr_le Hv 0 1). destruct Hv as [HN _]. unfold track. cbn [length].
  change (1 - 1)%nat with 0%nat. split; [lia|]. split; [lia|]. split; [intros _; split; [lia|auto]|].
  intros i' Hi'. exists 0%nat. replace i' with 0%nat by lia. split; [lia|reflexivity].
Qed.

Lemma track_lt : forall {f N i low c}, almost_incr f N -> track f N i low c False -> (S i < N)%nat -> low < f i.
Proof.
  intros f N i low c (_ & H1 & _) (Hi & _ & Hnx & _) Hn. pose proof (H1 (i - 1)%nat).
  replace (S (i - 1)) with i in * by lia. lia.
Qed.

Definition built (A : nat -> Z) (N : nat) (c : list Z) (d : list slice) (low : Z) : Prop :=
  length c = S (length d) /\ nthZ c (length d) = low /\ nthZ c 0 = A 0%nat /\
  forall t, (t < length d)%nat -> nthZ c t <= nthZ c (S t) /\ sl_ok A N c t (nth t d dslice).

Lemma built_snoc : forall {A N c d low x src},
  built A N c d low -> low <= x -> (S src < N)%nat -> A src <= low -> ((S (S src) < N)%nat -> low < A (S src)) ->
  built A N (c ++ [x]) (d ++ [{| s_src := src; s_lo := low; s_hi := x; s_closed := false |}]) x.
Proof.
  intros A N c d low x src (Hlen & Hlow & Hc0 & H) Hx Hs1 Hs2 Hs3.
  unfold built. rewrite !app_length. cbn [length]. replace (length d + 1)%nat with (length c) by lia.
  split; [lia|]. split; [apply nthZ_snoc|]. split; [rewrite nthZ_app1 by lia; exact Hc0|].
  intros t Ht. destruct (Nat.eq_dec t (length d)) as [->|Hne].
  - rewrite app_nth2, Nat.sub_diag by lia. unfold sl_ok. cbn [nth s_src s_lo s_hi s_closed].
    rewrite nthZ_app1, <- Hlen, nthZ_snoc, Hlow by lia. repeat split; (lia || assumption).
  - rewrite app_nth1 by lia. unfold sl_ok. rewrite !nthZ_app1 by lia. apply H. lia.
Qed.

(* inv_done: b is not used up before a, because last a <= last b and a tie advances b only together with
   the last copy of the value in a *)
Record Inv (a b : list Z) (s : st1) : Prop := {
  inv_a : track (al a b) (length a) (i1 s) (low1 s) (c1 s) False;
  inv_b : track (nthZ b) (length b) (j1 s) (low1 s) (c1 s) (i1 s < length a)%nat;
  inv_ab : low1 s = al a b (i1 s - 1) \/ low1 s = nthZ b (j1 s - 1);
  inv_done : (i1 s < length a)%nat -> (j1 s < length b)%nat;
  inv_cd : built (al a b) (length a) (c1 s) (d1 s) (low1 s) }.
Arguments inv_a {a b s}. Arguments inv_b {a b s}. Arguments inv_done {a b s}.

(* one turn of the loop is the loop with fuel 1 *)
Lemma phase1_S : forall f a b s,
  phase1 (S f) a b s =
  if ((i1 s <? length a)%nat && (j1 s <? length b)%nat)%bool then phase1 f a b (phase1 1 a b s) else s.
Proof. intros f a b s. cbn [phase1]. destruct (_ && _)%bool; reflexivity. Qed.

Lemma phase1_turn : forall a b s, (i1 s < length a)%nat -> (j1 s < length b)%nat ->
  let ai := nthZ a (i1 s) in let bj := nthZ b (j1 s) in let x := Z.min ai bj in
  phase1 1 a b s =
  {| i1 := if ai <=? bj then S (i1 s) else i1 s;
     j1 := if (bj <? ai) || (ai =? bj) && ((length a =? i1 s + 1)%nat || (ai <? nthZ a (i1 s + 1)))
           then S (j1 s) else j1 s;
     low1 := x; c1 := c1 s ++ [x];
     d1 := d1 s ++ [{| s_src := i1 s - 1; s_lo := low1 s; s_hi := x; s_closed := false |}] |}.
Proof.
  intros a b s Hi Hj ai bj x. cbn [phase1]. fold ai bj.
  replace ((i1 s <? length a)%nat && (j1 s <? length b)%nat)%bool with true by lia. unfold x.
  (* the three branches of the loop body: a_i < b_j, a_i > b_j, a_i = b_j *)
  destruct (Z.ltb_spec ai bj) as [H|H]; [|destruct (Z.gtb_spec ai bj) as [H'|H']].
  - assert (E : (ai <=? bj) = true /\ (bj <? ai) = false /\ (ai =? bj) = false) by lia.
    destruct E as (-> & -> & ->). rewrite Z.min_l by lia. reflexivity.
  - assert (E : (ai <=? bj) = false /\ (bj <? ai) = true) by lia.
    destruct E as (-> & ->). rewrite Z.min_r by lia. reflexivity.
  - assert (E : (ai <=? bj) = true /\ (bj <? ai) = false /\ (ai =? bj) = true) by lia.
    destruct E as (-> & -> & ->). rewrite Z.min_r by lia. reflexivity.
Qed.

Lemma phase1_progress : forall a b s, (i1 s < length a)%nat -> (j1 s < length b)%nat ->
  (i1 s + j1 s < i1 (phase1 1 a b s) + j1 (phase1 1 a b s))%nat.
Proof.
  intros a b s Hi Hj. rewrite (phase1_turn a b s Hi Hj). cbn [i1 j1].
  destruct (_ <=? _) eqn:E1, (_ || _)%bool eqn:E2; lia.
Qed.

Section Phase1.
  Variables a b : list Z.
  Local Notation A := (al a b).
  Hypothesis Hva : almost_incr A (length a).
  Hypothesis Hvb : almost_incr (nthZ b) (length b).
  Hypothesis HL : lastZ a <= lastZ b.

  Lemma inv_step : forall s,
    Inv a b s -> (i1 s < length a)%nat -> (j1 s < length b)%nat -> Inv a b (phase1 1 a b s).
  Proof.
    intros s [Ta Tb Tab Hd Hcd] Hi Hj. rewrite (phase1_turn a b s Hi Hj). cbv zeta.
    pose proof Ta as (Hia & Hloa & Hnxa & _). pose proof Tb as (_ & _ & Hnxb & _).
    specialize (Hnxa Hi). specialize (Hnxb Hj). pose proof (track_lt Hva Ta) as Hlt.
    rewrite <- (al_S a b (i1 s)) by lia. set (ai := A (i1 s)) in *. set (bj := nthZ b (j1 s)) in *.
    (* b may advance only below last b: then a value of a lies above b_j *)
    assert (Hjm : bj < lastZ a -> (S (j1 s) < length b)%nat).
    { intros H. destruct (Nat.eq_dec (S (j1 s)) (length b)) as [E|NE]; [|lia].
      rewrite (lastZ_nth b) in HL. replace (length b - 1)%nat with (j1 s) in HL by lia. fold bj in HL. lia. }
    pose proof (almost_incr_le Hva (i1 s) (length a - 1) ltac:(lia) ltac:(lia)) as HaL.
    rewrite (al_S a b (length a - 1)), <- lastZ_nth in HaL by lia. fold ai in HaL.
    constructor; cbn [i1 j1 low1 c1 d1].
    - destruct (Z.leb_spec ai bj) as [H|H]; [rewrite Z.min_l by lia|rewrite Z.min_r by lia].
      + apply (track_next Hva Ta Hi).
      + apply (track_stay Ta); lia.
    - destruct (_ || _)%bool eqn:Eb.
      + replace (Z.min ai bj) with bj by lia. apply (track_next Hvb Tb Hj).
      + replace (Z.min ai bj) with ai by lia. replace (ai <=? bj) with true by lia.
        apply (track_stay Tb); lia.
    - destruct (Z.leb_spec ai bj) as [H|H]; [rewrite Z.min_l by lia; left|rewrite Z.min_r by lia; right].
      + unfold ai. f_equal. lia.
      + replace (bj <? ai) with true by lia. unfold bj. f_equal. cbn [orb]. lia.
    - destruct (_ || _)%bool eqn:Eb; [|intros _; exact Hj].
      destruct (Z.leb_spec ai bj) as [H|H]; intros Hi'; apply Hjm; [|lia].
      (* a tie that advances both: a goes on above a_i *)
      pose proof (almost_incr_le Hva (i1 s + 1) (length a - 1) ltac:(lia) ltac:(lia)) as H1.
      rewrite !al_S, <- lastZ_nth in H1 by lia. lia.
    - apply (built_snoc Hcd); try lia. replace (S (i1 s - 1)) with (i1 s) by lia. exact Hlt.
  Qed.

  Lemma phase1_inv : forall fuel s, Inv a b s -> (length a - i1 s + (length b - j1 s) <= fuel)%nat ->
    Inv a b (phase1 fuel a b s) /\ i1 (phase1 fuel a b s) = length a.
  Proof.
    induction fuel as [|f IH]; intros s I Hm; pose proof (inv_done I) as Hd;
      destruct (inv_a I) as [? _]; destruct (inv_b I) as [? _].
    - cbn [phase1]. split; [exact I|]. lia.
    - rewrite phase1_S.
      destruct (Nat.ltb_spec (i1 s) (length a)) as [Hi|Hi]; cbn [andb]; [|split; [exact I|lia]].
      replace (j1 s <? length b)%nat with true by lia.
      pose proof (inv_step s I Hi (Hd Hi)) as I'. pose proof (phase1_progress a b s Hi (Hd Hi)).
      apply IH; [exact I'|]. destruct (inv_a I') as [? _]. destruct (inv_b I') as [? _]. lia.
  Qed.

  (* `for _j in range(j, len(b))`: more turns that advance b only *)
  Lemma tail_inv : forall bs s, Inv a b s -> i1 s = length a -> skipn (j1 s) b = bs ->
    exists s', tail_right a bs (low1 s) (c1 s) (d1 s) = (low1 s', c1 s', d1 s') /\
               Inv a b s' /\ i1 s' = length a /\ j1 s' = length b.
  Proof.
    induction bs as [|x bs IH]; intros s I Ei Es; pose proof I as [Ta Tb _ _ Hcd];
      pose proof (skipn_length (j1 s) b) as Hj; rewrite Es in Hj; cbn [length] in Hj.
    - exists s. destruct Tb as [? _]. split; [reflexivity|]. split; [exact I|]. split; [exact Ei|lia].
    - destruct (skipn_eq_cons Es) as [<- Es']. destruct Ta as (Hia & Hloa & _). destruct Tb as (_ & _ & Hnxb & _).
      set (x := nthZ b (j1 s)) in *.
      destruct (IH {| i1 := i1 s; j1 := S (j1 s); low1 := x; c1 := c1 s ++ [x];
                      d1 := d1 s ++ [{| s_src := length a - 2; s_lo := low1 s; s_hi := x; s_closed := false |}] |})
        as [s' Hs']; [|exact Ei|exact Es'|exists s'; exact Hs'].
      pose proof (almost_incr_le Hva (length a - 2) (length a - 1) ltac:(lia) ltac:(lia)). destruct Hva as [? _].
      constructor; cbn [i1 j1 low1 c1 d1].
      + apply (track_stay (inv_a I)); lia.
      + apply (track_next Hvb (inv_b I)). lia.
      + right. unfold x. f_equal. lia.
      + lia.
      + replace (length a - 1)%nat with (i1 s - 1)%nat in * by lia. apply (built_snoc Hcd); lia.
  Qed.
End Phase1.

(* (c, d) after phase 1 and the tail: c[0..k] runs from b_0 to last b *)
Record Grid (A : nat -> Z) (N : nat) (b c : list Z) (d : list slice) : Prop := {
  g_len : (length d < length c)%nat;
  g_c0 : nthZ c 0 = nthZ b 0;
  g_ck : nthZ c (length d) = lastZ b;
  g_sl : forall t, (t < length d)%nat -> nthZ c t <= nthZ c (S t) /\ sl_ok A N c t (nth t d dslice);
  g_ina : forall i, (i < N)%nat -> exists t, (t + (N - 1 - i) <= length d)%nat /\ nthZ c t = A i;
  g_inb : forall j, (j < length b)%nat ->
    exists t, (t + (length b - 1 - j) <= length d)%nat /\ nthZ c t = nthZ b j;
  g_single : nthZ c (length d - 1) = nthZ c (length d) -> single_last c = true }.

Arguments g_len {A N b c d}. Arguments g_c0 {A N b c d}. Arguments g_ck {A N b c d}. Arguments g_sl {A N b c d}.
Arguments g_ina {A N b c d}. Arguments g_inb {A N b c d}. Arguments g_single {A N b c d}.

Lemma validate_le : forall {a b force}, repart_validate a b force = true ->
  (2 <= length b)%nat /\ nthZ b 0 <= nthZ a 0 /\ lastZ a <= lastZ b.
Proof. intros a b force H. unfold repart_validate in H. destruct force; lia. Qed.

Section Gen.
  Variables a b : list Z.
  Variable force : bool.
  Local Notation A := (al a b).
  Hypothesis Hva : almost_incr A (length a).
  Hypothesis Hvb : almost_incr (nthZ b) (length b).
  Hypothesis Hval : repart_validate a b force = true.

  (* both cursors at the end: c1 s, or c1 s with last a = last b appended, is the grid *)
  Lemma grid_of_inv : forall s e, Inv a b s -> i1 s = length a -> j1 s = length b -> e = [] \/ e = [lastZ b] ->
    Grid A (length a) b (c1 s ++ e) (d1 s).
  Proof.
    intros s e [(_ & Hloa & _ & Ina) (_ & Hlob & _ & Inb) Hab _ (Hlen & Hlow & Hc0 & H)] Ei Ej He.
    destruct (validate_le Hval) as (Hlb & _ & HL). destruct Hva as [Hla _].
    rewrite Ei in *. rewrite Ej in *. rewrite al_S in * by lia. rewrite <- !lastZ_nth in *.
    assert (Hc : forall t, (t <= length (d1 s))%nat -> nthZ (c1 s ++ e) t = nthZ (c1 s) t)
      by (intros t Ht; apply nthZ_app1; lia).
    constructor.
    - rewrite app_length. lia.
    - rewrite Hc by lia. exact Hc0.
    - rewrite Hc by lia. lia.
    - intros t Ht. unfold sl_ok. rewrite !Hc by lia. apply H, Ht.
    - intros i Hi. destruct (Ina i Hi) as [t [Ht E]]. exists t. rewrite Hc by lia. split; [lia|exact E].
    - intros j Hj. destruct (Inb j Hj) as [t [Ht E]]. exists t. rewrite Hc by lia. split; [lia|exact E].
    - assert (Hk : (1 <= length (d1 s))%nat) by (destruct (Inb 0%nat) as [t [Ht _]]; lia).
      rewrite !Hc by lia. intros E. unfold single_last. rewrite app_length.
      destruct He as [->| ->]; cbn [length].
      + rewrite app_nil_r. replace (length (c1 s) + 0 - 1)%nat with (length (d1 s)) by lia.
        replace (length (c1 s) + 0 - 2)%nat with (length (d1 s) - 1)%nat by lia. lia.
      + replace (length (c1 s) + 1 - 1)%nat with (length (c1 s)) by lia. rewrite nthZ_snoc, nthZ_app1 by lia.
        replace (length (c1 s) + 1 - 2)%nat with (length (d1 s)) by lia. lia.
  Qed.

  Lemma plan_grid : exists c d, Grid A (length a) b c d /\
    repart_plan a b force =
    match length d with
    | O => None
    | S _ => match phase2 c b (single_last c) (length d) (seq 1 (length b - 1)) 0 [] with
             | None => None
             | Some outs => Some {| p_slices := close_last d; p_outs := outs |}
             end
    end.
  Proof.
    destruct (validate_le Hval) as (Hlb & H0 & HL). pose proof Hva as [Hla _].
    unfold repart_plan. rewrite Hval. cbn [negb]. rewrite Z.min_r by exact H0.
    set (s0 := {| i1 := 1; j1 := 1; low1 := nthZ b 0; c1 := [nthZ b 0]; d1 := [] |}).
    destruct (phase1_inv a b Hva Hvb HL (length a + length b) s0) as [I Ei]; [|cbn [s0 i1 j1]; lia|].
    { constructor; cbn [s0 i1 j1 low1 c1 d1].
      - exact (track_init Hva).
      - exact (track_init Hvb).
      - right. reflexivity.
      - lia.
      - repeat split; cbn [length] in *; lia. }
    set (s := phase1 (length a + length b) a b s0) in *.
    destruct ((lastZ a <? lastZ b) || (lastZ b =? nthZ b (length b - 2)))%bool eqn:Ec.
    - destruct (tail_inv a b Hva Hvb (skipn (j1 s) b) s I Ei eq_refl) as (s' & -> & I' & Ei' & Ej').
      exists (c1 s'), (d1 s'). split; [|reflexivity]. rewrite <- (app_nil_r (c1 s')). apply grid_of_inv; auto.
    - (* last a = last b, not repeated in b.  The loop has used up a, so the extra slice of
         `if last_elem and i < len(a)` is never made; and the tie that used up a used up b as well *)
      replace (single_last a && (i1 s <? length a)%nat)%bool with false by lia.
      assert (Ej : j1 s = length b).
      { destruct (inv_a I) as (_ & Hloa & _). destruct (inv_b I) as (Hj & _ & Hnxb & _).
        destruct (Nat.eq_dec (j1 s) (length b)) as [E|NE]; [exact E|]. specialize (Hnxb ltac:(lia)).
        rewrite Ei, al_S, <- lastZ_nth in Hloa by lia.
        pose proof (almost_incr_le Hvb (j1 s) (length b - 1)).
        pose proof (almost_incr_le Hvb (j1 s - 1) (length b - 2)).
        pose proof (almost_incr_le Hvb (length b - 2) (length b - 1)). pose proof (lastZ_nth b). lia. }
      replace (lastZ a) with (lastZ b) by lia.
      exists (c1 s ++ [lastZ b]), (d1 s). split; [apply grid_of_inv; auto|reflexivity].
  Qed.
End Gen.

Lemma nth_error_nthZ : forall c i, (i < length c)%nat -> nth_error c i = Some (nthZ c i).
Proof. intros c i H. unfold nthZ. apply nth_error_nth'. exact H. Qed.

Lemma collect_lt_spec : forall {fuel c bj i q tmp},
  (forall t, (i <= t < q)%nat -> nthZ c t < bj) -> (q < length c)%nat -> ~ (nthZ c q < bj) ->
  (i <= q)%nat -> (q - i < fuel)%nat ->
  collect_lt fuel c bj i tmp = Some (q, tmp ++ seq i (q - i)).
Proof.
  induction fuel as [|f IH]; intros c bj i q tmp Hlt Hq Hnq Hiq Hf; [lia|].
  cbn [collect_lt]. rewrite (nth_error_nthZ c i) by lia.
  destruct (Nat.eq_dec i q) as [->|Hne].
  - replace (nthZ c q <? bj) with false by lia.
    rewrite Nat.sub_diag. cbn [seq]. rewrite app_nil_r. reflexivity.
  - specialize (Hlt i ltac:(lia)) as Hc. replace (nthZ c i <? bj) with true by lia.
    rewrite (IH c bj (S i) q (tmp ++ [i])); try assumption; try lia.
    + replace (q - i)%nat with (S (q - S i)) by lia. cbn [seq]. rewrite <- app_assoc. reflexivity.
    + intros t Ht. apply Hlt. lia.
Qed.

Lemma collect_last_spec : forall {fuel c b le jl k i q tmp},
  let cond t :=
    (le && ((nthZ c t =? lastZ b) && (negb (lastZ b =? nthZ b (length b - 2)) || jl) && (t <? k)%nat))%bool in
  (forall t, (i <= t < q)%nat -> cond t = true) -> cond q = false -> (q < length c)%nat ->
  (i <= q)%nat -> (q - i < fuel)%nat ->
  collect_last fuel c b le jl k i tmp = Some (q, tmp ++ seq i (q - i)).
Proof.
  induction fuel as [|f IH]; intros c b le jl k i q tmp cond Hc Hq Hl Hiq Hf; [lia|].
  cbn [collect_last]. rewrite (nth_error_nthZ c i) by lia. subst cond. cbv beta in *.
  destruct (Nat.eq_dec i q) as [->|Hne].
  - rewrite Nat.sub_diag. cbn [seq]. rewrite app_nil_r. destruct le; [|reflexivity].
    cbn [andb] in Hq. rewrite Hq. reflexivity.
  - pose proof (Hc i ltac:(lia)) as Hi. destruct le; [|discriminate Hi]. cbn [andb] in Hi. rewrite Hi.
    rewrite (IH c b true jl k (S i) q (tmp ++ [i])); try assumption; try lia.
    + replace (q - i)%nat with (S (q - S i)) by lia. cbn [seq]. rewrite <- app_assoc. reflexivity.
    + intros t Ht. apply Hc. lia.
Qed.

Lemma ks_of_match : forall tmp : list nat,
  ks_of (match tmp with [] => ODummy | [x] => OAlias x | _ => OConcat tmp end) = tmp.
Proof. intros [|x [|y r]]; reflexivity. Qed.

Lemma filter_seq_range : forall p q s e,
  filter (fun t => (s <=? t)%nat && (t <? e)%nat) (seq p (q - p)) = seq (max p s) (min q e - max p s).
Proof.
  intros p q s e. set (x := max p s). set (y := min q e). destruct (le_lt_dec x y) as [H|H].
  - replace (q - p)%nat with ((x - p) + ((y - x) + (q - y)))%nat by lia.
    rewrite !seq_app. replace (p + (x - p))%nat with x by lia. replace (x + (y - x))%nat with y by lia.
    rewrite !filter_app, (filter_true _ (seq x (y - x))), !filter_false, app_nil_r; [reflexivity| | |];
      intros t Ht; apply in_seq in Ht; lia.
  - replace (y - x)%nat with 0%nat by lia. apply filter_false. intros t Ht. apply in_seq in Ht. lia.
Qed.

Lemma sortedZ_seq : forall (g : nat -> Z) len p,
  (forall t, (p <= t)%nat -> (S t < p + len)%nat -> g t <= g (S t)) -> sortedZ (map g (seq p len)).
Proof.
  induction len as [|len IH]; intros p H; [exact I|].
  cbn [seq map]. split.
  - destruct len as [|len']; [exact I|]. cbn [seq map]. apply H; lia.
  - apply IH. intros t Ht1 Ht2. apply H; lia.
Qed.

(* ks ordered by key: collecting the entries with key lo, lo + 1, ... in turn and concatenating keeps the order of ks, so
   it is filtering ks by the key range *)
Lemma concat_groups : forall (key : nat -> nat) ks,
  sortedZ (map (fun t => Z.of_nat (key t)) ks) ->
  forall n lo, concat (map (fun i => filter (fun t => (key t =? i)%nat) ks) (seq lo n))
               = filter (fun t => (lo <=? key t)%nat && (key t <? lo + n)%nat) ks.
Proof.
  intros key ks Hs. induction n as [|n IH]; intros lo.
  - symmetry. apply filter_false. intros t _. lia.
  - cbn [seq map concat]. rewrite IH.
    apply (filter_app_sorted nat (fun t => Z.of_nat (key t))); [| |exact Hs]; intros; lia.
Qed.

Lemma eqb_nats_refl : forall l, eqb_nats l l = true.
Proof. induction l as [|x l IH]; [reflexivity|]. cbn [eqb_nats]. rewrite Nat.eqb_refl, IH. reflexivity. Qed.

Lemma close_last_snoc : forall d0 x,
  close_last (d0 ++ [x]) = d0 ++ [{| s_src := s_src x; s_lo := s_lo x; s_hi := s_hi x; s_closed := true |}].
Proof. intros. unfold close_last. rewrite rev_unit, rev_involutive. reflexivity. Qed.

Lemma getS_close_last : forall d t, (t < length d)%nat ->
  getS (close_last d) t =
  {| s_src := s_src (nth t d dslice); s_lo := s_lo (nth t d dslice); s_hi := s_hi (nth t d dslice);
     s_closed := if (S t =? length d)%nat then true else s_closed (nth t d dslice) |}.
Proof.
  intros d t Ht. destruct (exists_last (l := d)) as [d0 [x E]]; [intros ->; cbn in Ht; lia|].
  subst d. rewrite close_last_snoc. unfold getS. rewrite app_length in *. cbn [length] in *.
  destruct (Nat.eq_dec t (length d0)) as [->|Hne].
  - rewrite !app_nth2 by lia. rewrite Nat.sub_diag. cbn [nth].
    destruct (Nat.eqb_spec (S (length d0)) (length d0 + 1)); [reflexivity|lia].
  - rewrite !app_nth1 by lia.
    destruct (Nat.eqb_spec (S t) (length d0 + 1)); [lia|].
    destruct (nth t d0 dslice); reflexivity.
Qed.

(* (c, d) with c strictly increasing up to position k, as it is for strictly increasing a and b with equal ends.  The
   generator theorem goes through Grid (c merely ordered) and does not use Shape; c_inv_le is what follows from it. *)
Definition slice_ok (a c : list Z) (t : nat) (s : slice) : Prop :=
  s_lo s = nthZ c t /\ s_hi s = nthZ c (S t) /\ s_closed s = false /\
  (S (s_src s) < length a)%nat /\ nthZ a (s_src s) <= nthZ c t /\ nthZ c (S t) <= nthZ a (S (s_src s)).

Record Shape (a b c : list Z) (d : list slice) (k : nat) : Prop := {
  sh_klen : length d = k;
  sh_kpos : (1 <= k)%nat;
  sh_clen : length c = S (S k);
  sh_cmono : forall t, (t < k)%nat -> nthZ c t < nthZ c (S t);
  sh_ck : nthZ c k = lastZ a;
  sh_ck1 : nthZ c (S k) = lastZ a;
  sh_sl : forall t, (t < k)%nat -> slice_ok a c t (nth t d dslice);
  sh_ina : forall i, (i < length a)%nat -> exists t, (t <= k)%nat /\ nthZ c t = nthZ a i;
  sh_inb : forall j, (j < length b)%nat -> exists t, (t <= k)%nat /\ nthZ c t = nthZ b j }.

Section Phase2.
  Variables a b c : list Z.
  Variable d : list slice.
  Variable k : nat.
  Hypothesis Sh : Shape a b c d k.
  Lemma c_inv_le : forall t t', (t <= k)%nat -> (t' <= k)%nat -> nthZ c t <= nthZ c t' -> (t <= t')%nat.
  Proof. intros t t' Ht Ht' H. pose proof (mono_lt_iff _ _ (sh_cmono _ _ _ _ _ Sh) t' t). lia. Qed.
End Phase2.

Definition first_at (c : list Z) (v : Z) (q : nat) : Prop :=
  nthZ c q = v /\ forall t, (t < q)%nat -> nthZ c t < v.

Section Plan.
  Variables a b c : list Z.
  Variable d : list slice.
  Local Notation A := (al a b).
  Hypothesis Hva : almost_incr A (length a).
  Hypothesis Hvb : almost_incr (nthZ b) (length b).
  Hypothesis Hb0 : nthZ b 0 <= nthZ a 0.
  Hypothesis G : Grid A (length a) b c d.

  Local Notation k := (length d).
  Local Notation n := (length a - 1)%nat.
  Local Notation m := (length b - 1)%nat.
  Local Notation sl := (close_last d).
  Let sg (t : nat) : nat := s_src (nth t d dslice).
  (* c is ordered; A strictly, up to its last but one value *)
  Local Lemma Oc : forall i j, (i <= j)%nat -> (j < S k)%nat -> nthZ c i <= nthZ c j.
  Proof.
    apply (adjacent_mono Z.le Z.le_refl Z.le_trans). intros t Ht.
    apply (g_sl G). lia.
  Qed.
  Local Lemma OA : forall t t', (t <= length a - 2)%nat -> (t' <= length a - 2)%nat -> (A t < A t' <-> (t < t')%nat).
  Proof. exact (mono_lt_iff A (length a - 2) (proj1 (proj2 Hva))). Qed.

  (* a value of c has a first position; with r entries of c to its right, so has that *)
  Lemma first_pos : forall {v r}, (exists t, (t + r <= k)%nat /\ nthZ c t = v) ->
    exists q, (q + r <= k)%nat /\ first_at c v q.
  Proof.
    intros v r (t0 & Ht & E). induction t0 as [|t0 IH].
    - exists 0%nat. repeat split; (lia || assumption).
    - destruct (Z.eq_dec (nthZ c t0) v) as [E'|NE]; [apply IH; [lia|exact E']|].
      exists (S t0). repeat split; try assumption. intros t Hlt.
      pose proof (Oc t t0 ltac:(lia) ltac:(lia)). pose proof (Oc t0 (S t0) ltac:(lia) ltac:(lia)). lia.
  Qed.

  Lemma first_at_le : forall {v q} t, first_at c v q -> (t <= k)%nat ->
    ((q <= t)%nat <-> v <= nthZ c t).
  Proof.
    intros v q t [E F] Ht. split; intros H; [rewrite <- E; apply Oc; lia|].
    destruct (le_lt_dec q t) as [Hle|Hlt]; [exact Hle|]. specialize (F t Hlt). lia.
  Qed.

  Lemma getS_sl : forall t, (t < k)%nat ->
    getS sl t = {| s_src := sg t; s_lo := nthZ c t; s_hi := nthZ c (S t); s_closed := (S t =? k)%nat |}.
  Proof.
    intros t Ht. rewrite getS_close_last by exact Ht.
    destruct (g_sl G t Ht) as [_ (E1 & E2 & E3 & _)]. unfold sg.
    rewrite E1, E2, E3. destruct (S t =? k)%nat; reflexivity.
  Qed.

  Lemma sg_facts : forall t, (t < k)%nat ->
    (sg t < n)%nat /\ A (sg t) <= nthZ c t /\ ((S (sg t) < n)%nat -> nthZ c t < A (S (sg t))).
  Proof. intros t Ht. destruct (g_sl G t Ht) as [_ (_ & _ & _ & E4 & E5 & E6)]. unfold sg. lia. Qed.

  Lemma sg_char : forall t i, (t < k)%nat -> (i < n)%nat ->
    (sg t = i <-> A i <= nthZ c t /\ ((S i < n)%nat -> nthZ c t < A (S i))).
  Proof.
    intros t i Ht Hi. pose proof (sg_facts t Ht) as F. split; [intros <-; tauto|]. intros [H1 H2].
    pose proof (OA i (S (sg t))). pose proof (OA (sg t) (S i)). lia.
  Qed.

  Lemma sg_adj : forall t, (S t < k)%nat -> (sg t <= sg (S t))%nat.
  Proof.
    intros t Ht. pose proof (sg_facts t). pose proof (sg_facts (S t)). pose proof (Oc t (S t)).
    pose proof (OA (sg t) (S (sg (S t)))). lia.
  Qed.

  (* the index range of the run [p, q) of c, as the hull of its slices *)
  Let run (p q : nat) : ivl := (nthZ c p, (nthZ c q, (q =? k)%nat)).

  Lemma chain_seq : forall len p, (p + S len <= k)%nat ->
    chain_ok (map (getS sl) (seq p (S len))) = true /\ hull (map (getS sl) (seq p (S len))) = run p (p + S len).
  Proof.
    unfold run. induction len as [|len IH]; intros p Hp; pose proof (Oc p (S p)); cbn [seq map].
    - rewrite getS_sl by lia. cbn [chain_ok hull ivl_of s_lo s_hi s_closed].
      replace (p + 1)%nat with (S p) by lia. split; [lia|reflexivity].
    - destruct (IH (S p)) as [C H0]; [lia|]. cbn [seq map] in C, H0.
      rewrite chain_ok_cons2, hull_cons2, C, H0, !getS_sl by lia. cbn [s_lo s_hi s_closed snd].
      replace (S p + S len)%nat with (p + S (S len))%nat by lia. split; [lia|reflexivity].
  Qed.

  Lemma run_meet : forall p q s e, (p <= k)%nat -> (q <= k)%nat -> (s <= k)%nat -> (e <= k)%nat ->
    inter (run p q) (run s e) = run (max p s) (min q e).
  Proof.
    intros p q s e Hp Hq Hs He. unfold run, inter. cbn [fst snd]. f_equal.
    - pose proof (Oc s p). pose proof (Oc p s). destruct (Nat.max_spec p s) as [[? ->]|[? ->]]; lia.
    - pose proof (Oc e q). pose proof (Oc q e). unfold ub_min.
      destruct (Nat.min_spec q e) as [[? ->]|[? ->]]; destruct (ub_le _ _) eqn:E; unfold ub_le in E; f_equal; lia.
  Qed.

  (* the slices that read source i are a run [s, e) of c: from the first A(i) to the first a_{i+1}, or to the
     end; its index range contains that of source i *)
  Lemma src_range : forall i, (i < n)%nat -> exists s e, (s < e <= k)%nat /\
    (forall t, (t < k)%nat -> sg t = i <-> (s <= t < e)%nat) /\ inter (run s e) (tgt a i) = tgt a i.
  Proof.
    intros i Hi. destruct (first_pos (g_ina G i ltac:(lia))) as (s & Hs & Fs).
    pose proof (fun t => first_at_le t Fs) as Ls.
    assert (Hai : nthZ c s <= nthZ a i).
    { rewrite (proj1 Fs). unfold al. destruct (i =? 0)%nat eqn:E; [replace i with 0%nat|]; lia. }
    destruct (Nat.eq_dec (S i) n) as [En|NEn].
    - exists s, k. split; [lia|]. split.
      + intros t Ht. rewrite (sg_char t i Ht Hi). specialize (Ls t). lia.
      + apply inter_absorb; [exact Hai|]. destruct (g_ina G (S i)) as (t1 & Ht1 & E1); [lia|].
        pose proof (Oc t1 k ltac:(lia) ltac:(lia)). rewrite al_S in E1 by lia.
        unfold ub_le. rewrite Nat.eqb_refl. lia.
    - destruct (first_pos (g_ina G (S i) ltac:(lia))) as (e & He & Fe).
      pose proof (fun t => first_at_le t Fe) as Le.
      pose proof (proj1 (proj2 Hva) i ltac:(lia)) as Hlt.
      exists s, e. split; [|split].
      + specialize (Le s). rewrite (proj1 Fs) in Le. lia.
      + intros t Ht. rewrite (sg_char t i Ht Hi). specialize (Ls t). specialize (Le t). lia.
      + apply inter_absorb; [exact Hai|]. rewrite (proj1 Fe), al_S by lia. unfold ub_le. lia.
  Qed.

  (* output j is the run [p, q) of c *)
  Section OneOut.
    Variables j p q : nat.
    Hypothesis Hpq : (p < q <= k)%nat.
    Hypothesis HB : tgt b j = run p q.

    (* the slices of the run that read source i are those of [p, q) ∩ [s, e) (src_range), whose hull is the
       meet of  tgt b j = run p q  with  run s e;  and  run s e  contains  tgt a i *)
    Lemma check_src_ok : forall i, (i < n)%nat -> check_src a b sl j (seq p (q - p)) i = true.
    Proof.
      intros i Hi. unfold check_src, group. destruct (src_range i Hi) as (s & e & Hse & Hsg & HA).
      rewrite (filter_ext_in _ (fun t => (s <=? t)%nat && (t <? e)%nat)), filter_seq_range.
      2:{ intros t Ht. apply in_seq in Ht. rewrite getS_sl by lia. cbn [s_src]. pose proof (Hsg t). lia. }
      rewrite <- HA at 2. rewrite <- inter_assoc, HB, run_meet by lia.
      destruct (min q e - max p s)%nat as [|len] eqn:Elen.
      - apply ieq_empty; apply iempty_inter_l; [reflexivity|].
        pose proof (Oc (min q e) (max p s) ltac:(lia) ltac:(lia)). unfold run, iempty. lia.
      - destruct (chain_seq len (max p s)) as [-> ->]; [lia|].
        replace (max p s + S len)%nat with (min q e) by lia. apply ieq_refl.
    Qed.

    Lemma check_out_ok : check_out a b sl j (seq p (q - p)) = true.
    Proof.
      unfold check_out. apply andb_true_iff. split.
      - unfold group. rewrite (concat_groups (fun t => s_src (getS sl t)) (seq p (q - p))).
        + rewrite filter_true; [apply eqb_nats_refl|]. intros t Ht. apply in_seq in Ht.
          rewrite getS_sl by lia. cbn [s_src]. pose proof (sg_facts t). lia.
        + apply (sortedZ_seq (fun t => Z.of_nat (s_src (getS sl t)))). intros t Ht1 Ht2.
          rewrite !getS_sl by lia. cbn [s_src]. pose proof (sg_adj t). lia.
      - apply forallb_seq. intros i Hi. apply check_src_ok. lia.
    Qed.
  End OneOut.

  (* one round of phase 2, from the first position p of b_j: the first loop stops at the first position q of b_{j+1};
     the second one does nothing, except for the last output, which also takes the point slices [L, L) that follow
     the first L *)
  Lemma next_cut : forall j p, (j < m)%nat -> (p + (m - j) <= k)%nat -> first_at c (nthZ b j) p ->
    exists q q', collect_lt (S (length c)) c (nthZ b (S j)) p [] = Some (q, seq p (q - p)) /\
      collect_last (S (length c)) c b (single_last c) (S j =? length b - 1)%nat k q (seq p (q - p))
      = Some (q', seq p (q' - p)) /\
      (p < q' <= k)%nat /\ tgt b j = run p q' /\
      ((S j < m)%nat -> (q' + (m - S j) <= k)%nat /\ first_at c (nthZ b (S j)) q').
  Proof.
    intros j p Hj Hp Fp. pose proof (g_len G) as Hlen.
    destruct (first_pos (g_inb G (S j) ltac:(lia))) as (q & Hq & Fq).
    pose proof (first_at_le q Fp ltac:(lia)) as Lp.
    pose proof (first_at_le p Fq ltac:(lia)) as Lq.
    destruct Fp as [Ep Fp], Fq as [Eq Fq']. rewrite Eq in Lp. rewrite Ep in Lq.
    pose proof (almost_incr_le Hvb j (S j) ltac:(lia) ltac:(lia)) as Hb.
    assert (Hlt : collect_lt (S (length c)) c (nthZ b (S j)) p [] = Some (q, seq p (q - p))).
    { apply (collect_lt_spec (tmp := [])); try lia. intros t Ht. apply Fq'. lia. }
    unfold tgt, run. rewrite Ep. exists q. destruct (Nat.eq_dec (S j) (length b - 1)) as [Ej|NEj].
    - exists k. pose proof (g_ck G) as Ek. rewrite lastZ_nth in Ek.
      rewrite Ej, Ek in *. rewrite !Nat.eqb_refl. split; [exact Hlt|]. split.
      { rewrite (collect_last_spec (q := k)); [rewrite seq_app_range by lia; reflexivity| |lia..].
        intros t Ht. rewrite (g_single G), lastZ_nth.
        - pose proof (Oc q t ltac:(lia) ltac:(lia)). pose proof (Oc t k ltac:(lia) ltac:(lia)). lia.
        - pose proof (Oc q (k - 1) ltac:(lia) ltac:(lia)). pose proof (Oc (k - 1) k ltac:(lia) ltac:(lia)). lia. }
      split; [lia|]. split.
      + do 2 f_equal. lia.
      + lia.
    - exists q. pose proof (proj1 (proj2 Hvb) j ltac:(lia)) as Hs.
      pose proof (almost_incr_le Hvb (S j) (length b - 2) ltac:(lia) ltac:(lia)) as Hb1.
      pose proof (almost_incr_le Hvb (length b - 2) (length b - 1) ltac:(lia) ltac:(lia)) as Hb2.
      rewrite Eq. split; [exact Hlt|]. split.
      { rewrite (collect_last_spec (q := q)); [|lia|rewrite lastZ_nth; lia|lia..].
        rewrite Nat.sub_diag. apply f_equal, f_equal, app_nil_r. }
      split; [lia|]. split.
      + do 2 f_equal. lia.
      + intros _. split; [lia|]. split; assumption.
  Qed.

  Lemma phase2_ok : forall r j p outs,
    (j + r = m)%nat -> ((1 <= r)%nat -> (p + r <= k)%nat /\ first_at c (nthZ b j) p) ->
    exists outs', phase2 c b (single_last c) k (seq (S j) r) p outs = Some (outs ++ outs') /\ length outs' = r /\
      forall u, (u < r)%nat -> check_out a b sl (j + u) (ks_of (nth u outs' ODummy)) = true.
  Proof.
    induction r as [|r IH]; intros j p outs Hr Hp.
    - exists []. rewrite app_nil_r. repeat split. intros u Hu. lia.
    - destruct Hp as [Hpk Fp]; [lia|].
      destruct (next_cut j p) as (q & q' & E1 & E2 & Hpq & HB & Hnext); [lia|lia|exact Fp|].
      cbn [seq phase2]. rewrite E1, E2.
      destruct (IH (S j) q' (outs ++ [match seq p (q' - p) with
                                       | [] => ODummy | [x] => OAlias x | _ => OConcat (seq p (q' - p)) end]))
        as [outs' [E [Hlo Hall]]]; [lia| |].
      { intros Hr1. replace r with (m - S j)%nat by lia. apply Hnext. lia. }
      eexists (_ :: outs'). rewrite E, <- app_assoc. split; [reflexivity|]. split; [cbn [length]; lia|].
      intros [|u] Hu; cbn [nth].
      + rewrite ks_of_match, Nat.add_0_r. apply check_out_ok; [exact Hpq|exact HB].
      + replace (j + S u)%nat with (S j + u)%nat by lia. apply Hall. lia.
  Qed.
End Plan.

Theorem repart_plan_gen_ok_valid : forall a b force,
  valid_divs a = true -> valid_divs b = true -> repart_validate a b force = true ->
  exists pl, repart_plan a b force = Some pl /\ plan_ok a b pl = true.
Proof.
  intros a b force Ha Hb Hval. destruct (validate_le Hval) as (_ & H0 & _).
  pose proof (al_almost_incr a b (valid_almost_incr a Ha) H0) as Hva. pose proof (valid_almost_incr b Hb) as Hvb.
  destruct (plan_grid a b force Hva Hvb Hval) as (c & d & G & ->).
  destruct (g_inb G 0%nat) as (t & Ht & _); [destruct Hvb; lia|].
  destruct (phase2_ok a b c d Hva Hvb H0 G (length b - 1) 0 0 []) as [outs [E [Hlen Hall]]]; [lia| |].
  { intros Hr. split; [lia|]. split; [apply (g_c0 G)|]. intros t' Ht'. lia. }
  rewrite E. destruct (length d) eqn:Ed; [destruct Hvb; lia|]. eexists. split; [reflexivity|].
  unfold plan_ok. cbn [app p_outs p_slices]. rewrite Hlen, Nat.eqb_refl.
  apply forallb_seq. intros j Hj. apply (Hall j). lia.
Qed.

Theorem repart_plan_correct : forall (row : Type) (idx : row -> Z) a b force pl (P : list (list row)),
  valid_divs a = true -> valid_divs b = true ->
  repart_plan a b force = Some pl ->
  respects idx a P -> parts_sorted idx P ->
  exec_plan idx P pl = spec_plan idx b P.
Proof.
  intros row idx a b force pl P Hva Hvb Hpl Hresp Hsort.
  assert (Hval : repart_validate a b force = true).
  { unfold repart_plan in Hpl. destruct (repart_validate a b force); [reflexivity|discriminate]. }
  destruct (repart_plan_gen_ok_valid a b force Hva Hvb Hval) as [pl' [E Hok]].
  rewrite Hpl in E. injection E as <-.
  apply (plan_ok_sound row idx a b pl P Hva Hvb Hok Hresp Hsort).
Qed.

Theorem repart_plan_gen_ok : forall a b,
  strict_incr a = true -> strict_incr b = true -> (2 <= length a)%nat -> (2 <= length b)%nat ->
  nthZ a 0 = nthZ b 0 -> lastZ a = lastZ b ->
  exists pl, repart_plan a b false = Some pl /\ plan_ok a b pl = true.
Proof.
  intros a b Ha Hb Hla Hlb H0 HL.
  apply repart_plan_gen_ok_valid; [apply strict_valid; assumption|apply strict_valid; assumption|].
  unfold repart_validate. lia.
Qed.

Corollary repart_plan_correct_strict : forall (row : Type) (idx : row -> Z) (a b : list Z) (P : list (list row)),
  strict_incr a = true -> strict_incr b = true -> (2 <= length a)%nat -> (2 <= length b)%nat ->
  nthZ a 0 = nthZ b 0 -> lastZ a = lastZ b ->
  respects idx a P -> parts_sorted idx P ->
  exists pl, repart_plan a b false = Some pl /\ exec_plan idx P pl = spec_plan idx b P.
Proof.
  intros row idx a b P Ha Hb Hla Hlb H0 HL Hresp Hsort.
  destruct (repart_plan_gen_ok a b Ha Hb Hla Hlb H0 HL) as [pl [E Hok]].
  exists pl. split; [exact E|].
  apply (plan_ok_sound row idx a b pl P (strict_valid a Ha Hla) (strict_valid b Hb Hlb) Hok Hresp Hsort).
Qed.

Fixpoint all_lists (vals : list Z) (len : nat) : list (list Z) :=
  match len with
  | O => [[]]
  | S n => flat_map (fun v => map (cons v) (all_lists vals n)) vals
  end.
(* all valid_divs vectors over 0..V-1 of length <= maxlen *)
Definition vecs (V maxlen : nat) : list (list Z) :=
  filter valid_divs (flat_map (all_lists (map Z.of_nat (seq 0 V))) (seq 0 (S maxlen))).

Lemma all_lists_complete : forall vals l, (forall x, In x l -> In x vals) -> In l (all_lists vals (length l)).
Proof.
  intros vals. induction l as [|x l IH]; intros H; [left; reflexivity|].
  cbn [length all_lists]. apply in_flat_map. exists x. split; [apply H; left; reflexivity|].
  apply in_map. apply IH. intros y Hy. apply H. right. exact Hy.
Qed.

Lemma vecs_complete : forall V maxlen l,
  valid_divs l = true -> (length l <= maxlen)%nat -> (forall x, In x l -> 0 <= x < Z.of_nat V) ->
  In l (vecs V maxlen).
Proof.
  intros V maxlen l Hv Hl Hr. unfold vecs. apply filter_In. split; [|exact Hv].
  apply in_flat_map. exists (length l). split; [apply in_seq; lia|].
  apply all_lists_complete. intros x Hx. apply in_map_iff. exists (Z.to_nat x).
  specialize (Hr x Hx). split; [apply Z2Nat.id; lia|]. apply in_seq. lia.
Qed.

Example vecs_has_repeated_last : In [0; 2; 2] (vecs 8 7) /\ In [3; 3] (vecs 8 7) /\ In [0;1;2;3;4;5;7] (vecs 8 7).
Proof. repeat split; apply vecs_complete; try reflexivity; cbn [length]; try lia;
       intros x Hx; cbn [In] in Hx; cbn; lia. Qed.

(* 492 vectors, 2 * 492^2 = 484128 (a, b, force) triples: an instance of the generator theorem *)
Theorem plan_gen_ok_bounded :
  forallb (fun a => forallb (fun b => forallb (fun force =>
     if repart_validate a b force then
       match repart_plan a b force with Some pl => plan_ok a b pl | None => false end
     else true) [false; true]) (vecs 8 7)) (vecs 8 7) = true.
Proof.
  assert (V : forall l, In l (vecs 8 7) -> valid_divs l = true) by (intros l H; apply filter_In in H; apply H).
  apply forallb_forall. intros a Ha. apply forallb_forall. intros b Hb. apply forallb_forall. intros force _.
  destruct (repart_validate a b force) eqn:E; [|reflexivity].
  destruct (repart_plan_gen_ok_valid a b force (V a Ha) (V b Hb) E) as [pl [-> ->]]. reflexivity.
Qed.

Corollary repart_plan_correct_bounded : forall (row : Type) (idx : row -> Z) a b force pl (P : list (list row)),
  valid_divs a = true -> valid_divs b = true ->
  (length a <= 7)%nat -> (length b <= 7)%nat ->
  (forall x, In x a -> 0 <= x < 8) -> (forall x, In x b -> 0 <= x < 8) ->
  repart_plan a b force = Some pl ->
  respects idx a P -> parts_sorted idx P ->
  exec_plan idx P pl = spec_plan idx b P.
Proof. intros row idx a b force pl P Hva Hvb _ _ _ _. apply repart_plan_correct; assumption. Qed.

Section Examples.
  (* rows are (index, payload) *)
  Let row := (Z * nat)%type.
  Let idx : row -> Z := fst.
  Let a := [0; 2; 2].
  Let b := [0; 1; 2; 2].
  Let P : list (list row) := [[(0, 10%nat); (1, 11%nat); (1, 12%nat)]; [(2, 13%nat); (2, 14%nat)]].
  Let pl := {| p_slices :=
             [{| s_src := 0; s_lo := 0; s_hi := 1; s_closed := false |};
              {| s_src := 0; s_lo := 1; s_hi := 2; s_closed := false |};
              {| s_src := 1; s_lo := 2; s_hi := 2; s_closed := false |};
              {| s_src := 1; s_lo := 2; s_hi := 2; s_closed := true |}];
           p_outs := [OAlias 0; OAlias 1; OConcat [2%nat; 3%nat]] |}.

  Example ex_valid : valid_divs a = true /\ valid_divs b = true.
  Proof. split; reflexivity. Qed.
  Example ex_plan : repart_plan a b false = Some pl.
  Proof. reflexivity. Qed.
  Example ex_ok : plan_ok a b pl = true.
  Proof. reflexivity. Qed.
  Example ex_respects : respects idx a P.
  Proof. apply respects_forallb; reflexivity. Qed.
  Example ex_sorted : parts_sorted idx P.
  Proof. intros p [<-|[<-|[]]]; cbn; lia. Qed.
  Example ex_conclusion : exec_plan idx P pl = spec_plan idx b P.
  Proof.
    apply (plan_ok_sound row idx a b pl P); [reflexivity|reflexivity|exact ex_ok|exact ex_respects|exact ex_sorted].
  Qed.
  Example ex_value : exec_plan idx P pl = [[(0, 10%nat)]; [(1, 11%nat); (1, 12%nat)]; [(2, 13%nat); (2, 14%nat)]].
  Proof. reflexivity. Qed.

  (* the checker is not trivially true: dropping a slice, swapping outputs, or a wrong source is rejected *)
  Example ex_reject_missing :
    plan_ok a b {| p_slices := p_slices pl; p_outs := [OAlias 0; OAlias 1; OAlias 2] |} = false.
  Proof. reflexivity. Qed.
  Example ex_reject_order :
    plan_ok a b {| p_slices := p_slices pl; p_outs := [OAlias 1; OAlias 0; OConcat [2%nat; 3%nat]] |} = false.
  Proof. reflexivity. Qed.
  Example ex_reject_src :
    plan_ok [0; 2; 4] [0; 4]
      {| p_slices := [{| s_src := 0; s_lo := 0; s_hi := 2; s_closed := false |};
                      {| s_src := 0; s_lo := 2; s_hi := 4; s_closed := true |}];
         p_outs := [OConcat [0%nat; 1%nat]] |} = false.
  Proof. reflexivity. Qed.
  (* forced widening of a single-value input (the D15 shape) is accepted for this model *)
  Example ex_force_single :
    match repart_plan [2; 2] [0; 1; 2; 2] true with Some pl => plan_ok [2; 2] [0; 1; 2; 2] pl | None => false end = true.
  Proof. reflexivity. Qed.
End Examples.

Check plan_ok_sound.
Check repart_plan_gen_ok.
Print Assumptions repart_plan_gen_ok.
Print Assumptions repart_plan_correct_strict.
Print Assumptions repart_plan_correct_bounded.
Print Assumptions plan_ok_sound.
Print Assumptions plan_gen_ok_bounded.

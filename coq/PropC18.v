(* PropC18.v -- property C18: parquet reads with pushed-down work equal reading everything into memory.
   Statements only (DNF.v mirrors _DNF.extract_pq_filters / normalize / combine and is compared with the real
   class on every run; Divisions.v covers the multi-file fused read). *)
From DX Require Import Base DNF DNFProofs Divisions DivisionsProofs.

(* row filters handed to the reader (the code does not hand `!=` to it: fix of defect D7): for EVERY pushed
   predicate the reader keeps exactly the rows pandas keeps, including rows with missing values *)
Theorem C18_filter_pushdown_sound : forall t d r,
  extract t = Some d -> pandas_keep t r = Some (arrow_keep d r).
Proof. exact dnf_sound. Qed.
Print Assumptions C18_filter_pushdown_sound.

(* why `!=` must not be pushed: with the old extraction (NE included) the statement is false -- witness = defect D7 *)
Theorem C18_pushing_ne_refuted : exists t d r,
  extract_with_ne t = Some d /\ pandas_keep t r = Some true /\ arrow_keep d r = false.
Proof. exact dnf_with_ne_refuted. Qed.
Print Assumptions C18_pushing_ne_refuted.
(* the fix only withdraws filters, it never changes one that is still pushed *)
Theorem C18_fix_refines : forall t d, extract t = Some d -> extract_with_ne t = Some d.
Proof. exact extract_refines_with_ne. Qed.
Print Assumptions C18_fix_refines.

(* user-supplied filters combined with pushed ones: conjunction *)
Theorem C18_combine_sound : forall o1 o2 r, arrow_keep_opt (combine o1 o2) r = arrow_keep_opt o1 r && arrow_keep_opt o2 r.
Proof. exact combine_sound. Qed.
Print Assumptions C18_combine_sound.

(* multi-file fused reads: buckets partition the selected files, and the divisions reported for the fused
   partitions are truthful (with the last entry taken from the divisions, not a partition number) *)
Theorem C18_fused_read_truthful : forall divs parts parts_sel step,
  truthful divs parts -> strictly_increasingb parts_sel = true -> (forall p, In p parts_sel -> p < length parts) ->
  1 <= step -> parts_sel <> [] ->
  truthful (fused_divisions divs (fusion_buckets parts_sel step)) (fused_parts parts (fusion_buckets parts_sel step)).
Proof. exact fused_truthful. Qed.
Print Assumptions C18_fused_read_truthful.

Theorem C18_fusion_buckets_cover : forall (l : list nat) step, 1 <= step -> concat (fusion_buckets l step) = l.
Proof. exact fusion_buckets_concat. Qed.
Print Assumptions C18_fusion_buckets_cover.

(* divisions from parquet statistics (calculate_divisions=True): files sorted by (min, max), accepted only when strictly
   separated; the unfixed acceptance test (defect D30) is refuted *)
From DX Require Import MinMax MinMaxProofs.
Theorem C18_statistics_divisions_truthful : forall l parts d p,
  stats_ok l parts -> wf_stats l -> stats_divisions l = Some (d, p) ->
  truthful d (reindex parts p []) /\ Permutation.Permutation p (seq 0 (length parts)).
Proof. exact stats_truthful. Qed.
Print Assumptions C18_statistics_divisions_truthful.

Theorem C18_statistics_old_refuted : exists l parts,
  stats_ok l parts /\ wf_stats l /\
  ~ truthful (fst (stats_divisions_old l)) (reindex parts (snd (stats_divisions_old l)) []).
Proof. exact stats_old_refuted. Qed.
Print Assumptions C18_statistics_old_refuted.

(* DNFProofs.v -- the _DNF model (DNF.v) is studied through K, the Boolean value of a dnf under a valuation of its
   atoms: canon is frozenset identity (canon_iff); extract_gen emits dnf_of t, a DNF of t under every valuation, exactly
   on the trees of admitted comparisons (extract_gen_spec); the reader's Kleene value is known from two such readings. *)
From DX Require Import Base DNF.
From Coq Require Import Sorted.

Record good {A : Type} (c : A -> A -> comparison) : Prop := {
  g_eq : forall x y, c x y = Eq -> x = y;
  g_anti : forall x y, c y x = CompOpp (c x y);
  g_trans : forall x y z, c x y = Lt -> c y z = Lt -> c x z = Lt }.
Arguments g_eq {A c}. Arguments g_anti {A c}. Arguments g_trans {A c}.

Lemma g_refl : forall {A} {c : A -> A -> comparison}, good c -> forall x, c x x = Eq.
Proof. intros A c G x. pose proof (g_anti G x x) as H. destruct (c x x); [reflexivity|discriminate|discriminate]. Qed.

Lemma lex_good : forall {A} {c : A -> A -> comparison}, good c -> good (lex_compare c).
Proof.
  intros A c G. split.
  - induction x as [|a x IH]; intros [|b y] H; simpl in H; try discriminate; [reflexivity|].
    destruct (c a b) eqn:E; try discriminate. apply (g_eq G) in E. subst. f_equal. apply IH. exact H.
  - induction x as [|a x IH]; intros [|b y]; simpl; try reflexivity.
    rewrite (g_anti G a b). destruct (c a b); simpl; auto.
  - induction x as [|a x IH]; intros [|b y] [|d z]; simpl; intros H1 H2; try discriminate; try reflexivity.
    destruct (c a b) eqn:E1; destruct (c b d) eqn:E2; try discriminate.
    + apply (g_eq G) in E1. apply (g_eq G) in E2. subst. rewrite (g_refl G). eapply IH; eauto.
    + apply (g_eq G) in E1. subst. rewrite E2. reflexivity.
    + apply (g_eq G) in E2. subst. rewrite E1. reflexivity.
    + rewrite (g_trans G _ _ _ E1 E2). reflexivity.
Qed.

Lemma Z_compare_good : good Z.compare.
Proof.
  split.
  - apply Z.compare_eq.
  - intros x y. apply Z.compare_antisym.
  - intros x y z. rewrite !Z.compare_lt_iff. apply Z.lt_trans.
Qed.

(* an atom is ordered like the triple of integers (column, operator index, value) *)
Definition enc (a : atom) : list Z := [Z.of_nat (a_col a); Z.of_nat (cmp_idx (a_op a)); a_val a].

Lemma cmp_idx_inj : forall a b, cmp_idx a = cmp_idx b -> a = b.
Proof. intros [] []; simpl; intros H; try reflexivity; discriminate. Qed.

Lemma enc_inj : forall a b, enc a = enc b -> a = b.
Proof.
  intros [c1 o1 v1] [c2 o2 v2]. unfold enc. simpl. intros H. inversion H as [[H1 H2 H3]].
  apply Nat2Z.inj in H1. apply Nat2Z.inj in H2. apply cmp_idx_inj in H2. subst. reflexivity.
Qed.

Lemma atom_compare_enc : forall a b, atom_compare a b = lex_compare Z.compare (enc a) (enc b).
Proof.
  intros a b. unfold atom_compare, enc. cbn [lex_compare]. rewrite !Nat2Z.inj_compare.
  destruct (Nat.compare (a_col a) (a_col b)); try reflexivity.
  destruct (Nat.compare (cmp_idx (a_op a)) (cmp_idx (a_op b))); try reflexivity.
  destruct (Z.compare (a_val a) (a_val b)); reflexivity.
Qed.

Lemma atom_compare_good : good atom_compare.
Proof.
  pose proof (lex_good Z_compare_good) as G. split; intros *; rewrite !atom_compare_enc.
  - intros H. apply enc_inj, (g_eq G), H.
  - apply (g_anti G).
  - apply (g_trans G).
Qed.

Lemma conj_compare_good : good conj_compare.
Proof. apply (lex_good atom_compare_good). Qed.

Lemma dnf_compare_good : good dnf_compare.
Proof. apply (lex_good conj_compare_good). Qed.

Section SortU.
  Context {A : Type} {c : A -> A -> comparison} (G : good c).
  Let lt (x y : A) : Prop := c x y = Lt.

  Lemma insu_In : forall x l z, In z (insu c x l) <-> z = x \/ In z l.
  Proof.
    induction l as [|y t IH]; intros z; simpl.
    - intuition.
    - destruct (c x y) eqn:E.
      + apply (g_eq G) in E. subst. simpl. intuition.
      + simpl. intuition.
      + simpl. rewrite IH. intuition.
  Qed.

  Lemma sortu_In : forall l z, In z (sortu c l) <-> In z l.
  Proof.
    induction l as [|x l IH]; intros z; simpl; [tauto|].
    rewrite insu_In, IH. intuition.
  Qed.

  Lemma insu_sorted : forall x l, StronglySorted lt l -> StronglySorted lt (insu c x l).
  Proof.
    intros x. induction l as [|y t IH]; intros Hs; simpl.
    - constructor; constructor.
    - inversion Hs as [|? ? Hst Hy]; subst. destruct (c x y) eqn:E.
      + exact Hs.
      + constructor; [exact Hs|]. constructor; [exact E|].
        eapply Forall_impl; [|exact Hy]. intros z. apply (g_trans G), E.
      + constructor; [apply IH; exact Hst|].
        rewrite Forall_forall in *. intros z Hz. apply insu_In in Hz. destruct Hz as [->|Hz]; [|apply Hy, Hz].
        unfold lt. rewrite (g_anti G x y), E. reflexivity.
  Qed.

  Lemma sortu_sorted : forall l, StronglySorted lt (sortu c l).
  Proof. induction l as [|x l IH]; simpl; [constructor|]. apply insu_sorted. exact IH. Qed.

  Lemma sortu_lt_irrefl : forall x, ~ lt x x.
  Proof. intros x H. unfold lt in H. rewrite (g_refl G) in H. discriminate. Qed.

  Lemma sorted_unique : forall l1 l2,
    StronglySorted lt l1 -> StronglySorted lt l2 -> (forall z, In z l1 <-> In z l2) -> l1 = l2.
  Proof.
    induction l1 as [|x l1 IH]; intros [|y l2] S1 S2 H.
    - reflexivity.
    - exfalso. apply (H y). left. reflexivity.
    - exfalso. apply (H x). left. reflexivity.
    - apply StronglySorted_inv in S1, S2. destruct S1 as [S1 F1], S2 as [S2 F2]. rewrite Forall_forall in F1, F2.
      (* each head is the least element of the same set *)
      assert (x = y) as <-.
      { destruct (proj1 (H x) (or_introl eq_refl)) as [E|Hx]; [symmetry; exact E|].
        destruct (proj2 (H y) (or_introl eq_refl)) as [E|Hy]; [exact E|].
        elim (sortu_lt_irrefl x). apply (g_trans G x y x); [apply F1, Hy|apply F2, Hx]. }
      f_equal. apply IH; try assumption. intros z.
      assert (N1 : In z l1 -> z <> x) by (intros Hz ->; apply (sortu_lt_irrefl x), F1, Hz).
      assert (N2 : In z l2 -> z <> x) by (intros Hz ->; apply (sortu_lt_irrefl x), F2, Hz).
      specialize (H z). simpl in H. intuition congruence.
  Qed.

  Lemma sortu_unique : forall l1 l2, (forall z, In z l1 <-> In z l2) -> sortu c l1 = sortu c l2.
  Proof.
    intros l1 l2 H. apply sorted_unique; try apply sortu_sorted.
    intros z. rewrite !sortu_In. apply H.
  Qed.
End SortU.

(* set-of-sets equality of two list models *)
Definition conj_equiv (c1 c2 : list atom) : Prop := forall a, In a c1 <-> In a c2.
Definition dnf_sub (d1 d2 : dnf) : Prop := forall c1, In c1 d1 -> exists c2, In c2 d2 /\ conj_equiv c1 c2.
Definition dnf_equiv (d1 d2 : dnf) : Prop := dnf_sub d1 d2 /\ dnf_sub d2 d1.

Lemma canon_conj_In : forall c a, In a (canon_conj c) <-> In a c.
Proof. exact (sortu_In atom_compare_good). Qed.

Lemma canon_In : forall d c, In c (canon d) <-> In c (map canon_conj d).
Proof. intros. apply (sortu_In conj_compare_good). Qed.

Lemma canon_equiv_self : forall d, dnf_equiv (canon d) d.
Proof.
  intros d. split; intros c Hc.
  - apply canon_In in Hc. apply in_map_iff in Hc. destruct Hc as [c0 [<- Hc0]].
    exists c0. split; [exact Hc0|]. intros a. apply canon_conj_In.
  - exists (canon_conj c). split.
    + apply canon_In. apply in_map. exact Hc.
    + intros a. symmetry. apply canon_conj_In.
Qed.

Lemma canon_conj_complete : forall c1 c2, conj_equiv c1 c2 -> canon_conj c1 = canon_conj c2.
Proof. exact (sortu_unique atom_compare_good). Qed.

Theorem canon_complete : forall d1 d2, dnf_equiv d1 d2 -> canon d1 = canon d2.
Proof.
  assert (P : forall d1 d2, dnf_sub d1 d2 -> forall z, In z (map canon_conj d1) -> In z (map canon_conj d2)).
  { intros d1 d2 H z Hz. apply in_map_iff in Hz. destruct Hz as [c1 [<- Hc1]].
    destruct (H c1 Hc1) as [c2 [Hc2 E]]. rewrite (canon_conj_complete _ _ E). apply in_map. exact Hc2. }
  intros d1 d2 [H12 H21]. apply (sortu_unique conj_compare_good).
  intros z. split; apply P; assumption.
Qed.

Lemma dnf_sub_trans : forall d1 d2 d3, dnf_sub d1 d2 -> dnf_sub d2 d3 -> dnf_sub d1 d3.
Proof.
  intros d1 d2 d3 H12 H23 c1 Hc1. destruct (H12 c1 Hc1) as [c2 [Hc2 E12]].
  destruct (H23 c2 Hc2) as [c3 [Hc3 E23]]. exists c3. split; [exact Hc3|].
  intros a. rewrite (E12 a). apply E23.
Qed.

(* canon is frozenset identity: two dnfs denote the same set of sets iff their canon coincide *)
Theorem canon_iff : forall d1 d2, canon d1 = canon d2 <-> dnf_equiv d1 d2.
Proof.
  intros d1 d2. split; [|apply canon_complete].
  intros H. destruct (canon_equiv_self d1) as [A1 B1], (canon_equiv_self d2) as [A2 B2]. rewrite H in *.
  split; eapply dnf_sub_trans; eauto.
Qed.

Theorem canon_idem : forall d, canon (canon d) = canon d.
Proof. intros d. apply canon_complete. apply canon_equiv_self. Qed.

(* the executable test used for `left == right` decides frozenset equality exactly *)
Theorem dnf_eqb_iff : forall d1 d2, dnf_eqb d1 d2 = true <-> dnf_equiv d1 d2.
Proof.
  intros d1 d2. rewrite <- canon_iff. unfold dnf_eqb. split; intros H.
  - apply (g_eq dnf_compare_good). destruct (dnf_compare (canon d1) (canon d2)); [reflexivity|discriminate|discriminate].
  - rewrite H, (g_refl dnf_compare_good). reflexivity.
Qed.

(* the Boolean value of a dnf when atom a is worth p a *)
Definition K (p : atom -> bool) (d : dnf) : bool := existsb (forallb p) d.

Lemma K_sub : forall p d1 d2, dnf_sub d1 d2 -> K p d1 = true -> K p d2 = true.
Proof.
  unfold K. intros p d1 d2 H. rewrite !existsb_exists. intros [c1 [Hc1 Hp]].
  destruct (H c1 Hc1) as [c2 [Hc2 E]]. exists c2. split; [exact Hc2|].
  rewrite forallb_forall in *. intros a Ha. apply Hp, E, Ha.
Qed.

Lemma K_equiv : forall p d1 d2, dnf_equiv d1 d2 -> K p d1 = K p d2.
Proof. intros p d1 d2 [H1 H2]. apply Bool.eq_iff_eq_true. split; apply K_sub; assumption. Qed.

Lemma K_canon : forall p d, K p (canon d) = K p d.
Proof. intros. apply K_equiv, canon_equiv_self. Qed.

Lemma K_app : forall p d1 d2, K p (d1 ++ d2) = K p d1 || K p d2.
Proof. intros. apply existsb_app. Qed.

Lemma K_map_app : forall p c acc, K p (map (fun c' => c ++ c') acc) = forallb p c && K p acc.
Proof.
  intros p c. unfold K. induction acc as [|x acc IH]; simpl.
  - rewrite andb_false_r. reflexivity.
  - rewrite IH, forallb_app. destruct (forallb p c), (forallb p x); reflexivity.
Qed.

Lemma K_product : forall p d acc,
  K p (flat_map (fun c => map (fun c' => c ++ c') acc) d) = K p d && K p acc.
Proof.
  intros p d acc. induction d as [|c d IH]; simpl; [reflexivity|].
  rewrite K_app, K_map_app, IH. destruct (forallb p c), (K p d), (K p acc); reflexivity.
Qed.

Lemma normalize_and_cons : forall d ds,
  normalize_and (d :: ds) = flat_map (fun c => map (fun c' => c ++ c') (normalize_and ds)) d.
Proof. reflexivity. Qed.

Lemma K_normalize_and : forall p ds, K p (normalize_and ds) = forallb (K p) ds.
Proof.
  intros p. induction ds as [|d ds IH]; [reflexivity|].
  rewrite normalize_and_cons, K_product, IH. reflexivity.
Qed.

Lemma K_normalize_or : forall p ds, K p (normalize_or ds) = existsb (K p) ds.
Proof.
  intros p. unfold normalize_or. induction ds as [|d ds IH]; [reflexivity|].
  simpl. rewrite K_app, IH. reflexivity.
Qed.

(* `_And([l, r])` / `_Or([l, r])` go through a frozenset, which collapses l == r: harmless, both connectives being idempotent *)
Lemma forallb_set2 : forall p l r, forallb (K p) (set2 l r) = K p l && K p r.
Proof.
  intros p l r. unfold set2. destruct (dnf_eqb l r) eqn:E; simpl.
  - apply dnf_eqb_iff in E. rewrite <- (K_equiv p l r E). destruct (K p l); reflexivity.
  - rewrite andb_true_r. reflexivity.
Qed.

Lemma existsb_set2 : forall p l r, existsb (K p) (set2 l r) = K p l || K p r.
Proof.
  intros p l r. unfold set2. destruct (dnf_eqb l r) eqn:E; simpl.
  - apply dnf_eqb_iff in E. rewrite <- (K_equiv p l r E). destruct (K p l); reflexivity.
  - rewrite orb_false_r. reflexivity.
Qed.

(* the two constant valuations read off the shape: a dnf is satisfiable by "all atoms true" iff it has a conjunction,
   and unsatisfiable by "all atoms false" iff none of its conjunctions is empty *)
Definition conjs_nonempty (d : dnf) : Prop := forall c, In c d -> c <> [].

Lemma K_true : forall d, K (fun _ => true) d = true <-> d <> [].
Proof.
  intros [|c d]; simpl; [split; congruence|].
  replace (forallb (fun _ => true) c) with true by (symmetry; apply forallb_forall; reflexivity).
  split; [discriminate|reflexivity].
Qed.

Lemma K_false : forall d, K (fun _ => false) d = false <-> conjs_nonempty d.
Proof.
  intros d. unfold K, conjs_nonempty. rewrite <- Bool.not_true_iff_false, existsb_exists. split.
  - intros H c Hc ->. apply H. exists []. auto.
  - intros H [[|a c] [Hc Hf]]; [apply (H [] Hc); reflexivity|discriminate].
Qed.

Lemma canon_nonempty : forall d, d <> [] -> canon d <> [].
Proof. intros d. rewrite <- !K_true, K_canon. tauto. Qed.

Lemma mk_Some : forall d d', mk d = Some d' -> d <> [] /\ d' = canon d.
Proof. intros [|c d] d' H; simpl in H; [discriminate|]. inversion H. split; [discriminate|reflexivity]. Qed.

Lemma mk_nonempty : forall d, d <> [] -> mk d = Some (canon d).
Proof. intros [|c d] H; [congruence|reflexivity]. Qed.

Lemma truthy_Some : forall d, d <> [] -> truthy (Some d) = true.
Proof. intros [|c d] H; [congruence|reflexivity]. Qed.

Lemma normalize_and_set2_nonempty : forall l r, l <> [] -> r <> [] -> normalize_and (set2 l r) <> [].
Proof. intros l r. rewrite <- !K_true, K_normalize_and, forallb_set2. intros -> ->. reflexivity. Qed.

Lemma normalize_or_set2_nonempty : forall l r, l <> [] -> normalize_or (set2 l r) <> [].
Proof. intros l r. rewrite <- !K_true, K_normalize_or, existsb_set2. intros ->. reflexivity. Qed.

Fixpoint teval (p : atom -> bool) (t : ptree) : bool :=
  match t with
  | PCmp a => p a
  | PCmpFlip a => p (flip_atom a)
  | PAndT l r => teval p l && teval p r
  | POrT l r => teval p l || teval p r
  | POther => false
  end.

Fixpoint cmp_only (t : ptree) : bool :=
  match t with
  | PCmp _ => true
  | PAndT l r | POrT l r => cmp_only l && cmp_only r
  | PCmpFlip _ | POther => false
  end.

(* every comparison atom of the tree satisfies q *)
Fixpoint tforall (q : atom -> bool) (t : ptree) : bool :=
  match t with
  | PCmp a => q a
  | PCmpFlip a => q (flip_atom a)
  | PAndT l r | POrT l r => tforall q l && tforall q r
  | POther => true
  end.

(* the filter of a tree of column-vs-literal comparisons *)
Fixpoint dnf_of (t : ptree) : dnf :=
  match t with
  | PCmp a => canon [[a]]
  | PAndT l r => canon (normalize_and (set2 (dnf_of l) (dnf_of r)))
  | POrT l r => canon (normalize_or (set2 (dnf_of l) (dnf_of r)))
  | PCmpFlip _ | POther => []
  end.

Lemma cmp_only_ind : forall P : ptree -> Prop,
  (forall a, P (PCmp a)) ->
  (forall l r, P l -> P r -> P (PAndT l r)) ->
  (forall l r, P l -> P r -> P (POrT l r)) ->
  forall t, cmp_only t = true -> P t.
Proof.
  intros P Hc Ha Ho. induction t as [a|a|l IHl r IHr|l IHl r IHr|]; simpl; intros H; try discriminate.
  - apply Hc.
  - apply andb_true_iff in H. apply Ha; [apply IHl|apply IHr]; apply H.
  - apply andb_true_iff in H. apply Ho; [apply IHl|apply IHr]; apply H.
Qed.

Lemma dnf_of_eval : forall p t, cmp_only t = true -> K p (dnf_of t) = teval p t.
Proof.
  intros p. apply cmp_only_ind; cbn [dnf_of teval].
  - intros a. rewrite K_canon. simpl. rewrite andb_true_r, orb_false_r. reflexivity.
  - intros l r IHl IHr. rewrite K_canon, K_normalize_and, forallb_set2, IHl, IHr. reflexivity.
  - intros l r IHl IHr. rewrite K_canon, K_normalize_or, existsb_set2, IHl, IHr. reflexivity.
Qed.

Lemma teval_true : forall t, cmp_only t = true -> teval (fun _ => true) t = true.
Proof. apply cmp_only_ind; simpl; [reflexivity| |]; intros l r -> ->; reflexivity. Qed.

Lemma teval_false : forall t, teval (fun _ => false) t = false.
Proof. induction t; simpl; try reflexivity; rewrite IHt1, IHt2; reflexivity. Qed.

Lemma dnf_of_nonempty : forall t, cmp_only t = true -> dnf_of t <> [].
Proof. intros t H. rewrite <- K_true, dnf_of_eval by exact H. apply teval_true, H. Qed.

(* the policy [ok] decides whether a filter is emitted, the tree alone decides which *)
Theorem extract_gen_spec : forall ok t,
  extract_gen ok t = if cmp_only t && tforall ok t then Some (dnf_of t) else None.
Proof.
  intros ok. induction t as [a|a|l IHl r IHr|l IHl r IHr|]; cbn [extract_gen cmp_only tforall dnf_of]; try reflexivity.
  all: rewrite IHl, IHr.
  all: destruct (cmp_only l) eqn:Cl, (tforall ok l), (cmp_only r) eqn:Cr, (tforall ok r);
         cbn [andb]; rewrite ?andb_false_r; try reflexivity.
  (* both subtrees emit: their filters are non-empty, so the truthiness tests pass and mk does not answer None *)
  all: apply dnf_of_nonempty in Cl, Cr; rewrite !truthy_Some by assumption; apply mk_nonempty.
  - apply normalize_and_set2_nonempty; assumption.
  - apply normalize_or_set2_nonempty; assumption.
Qed.

Corollary extract_gen_inv : forall {ok t d},
  extract_gen ok t = Some d -> cmp_only t = true /\ tforall ok t = true /\ d = dnf_of t.
Proof.
  intros ok t d. rewrite extract_gen_spec.
  destruct (cmp_only t), (tforall ok t); simpl; intros H; inversion H. auto.
Qed.

Theorem extract_gen_Some_iff : forall ok t,
  (exists d, extract_gen ok t = Some d) <-> cmp_only t && tforall ok t = true.
Proof.
  intros ok t. rewrite extract_gen_spec. destruct (cmp_only t && tforall ok t); split; eauto; try discriminate.
  intros [d H]. discriminate.
Qed.

Theorem extract_gen_eval : forall ok t d, extract_gen ok t = Some d -> forall p, K p d = teval p t.
Proof. intros ok t d H p. destruct (extract_gen_inv H) as [C [_ ->]]. apply dnf_of_eval, C. Qed.

(* what is emitted is a well-formed, non-trivial pyarrow filter: read it under the two constant valuations *)
Theorem extract_gen_wf : forall ok t d, extract_gen ok t = Some d -> d <> [] /\ conjs_nonempty d.
Proof.
  intros ok t d H. rewrite <- K_true, <- K_false, !(extract_gen_eval _ _ _ H), teval_false.
  split; [|reflexivity]. apply teval_true, (extract_gen_inv H).
Qed.

Lemma tforall_impl : forall {q1 q2 : atom -> bool},
  (forall a, q1 a = true -> q2 a = true) -> forall t, tforall q1 t = true -> tforall q2 t = true.
Proof.
  intros q1 q2 Hq. induction t; simpl; intros H; auto.
  - apply andb_true_iff in H. destruct H. rewrite IHt1, IHt2; auto.
  - apply andb_true_iff in H. destruct H. rewrite IHt1, IHt2; auto.
Qed.

Lemma tforall_true : forall t, tforall (fun _ => true) t = true.
Proof. induction t; simpl; auto; rewrite IHt1, IHt2; reflexivity. Qed.

(* a laxer leaf policy only turns None into Some, never changes an emitted filter *)
Theorem extract_gen_mono : forall (ok ok' : atom -> bool) t d,
  (forall a, ok a = true -> ok' a = true) -> extract_gen ok t = Some d -> extract_gen ok' t = Some d.
Proof.
  intros ok ok' t d Himp H. destruct (extract_gen_inv H) as [C [Q ->]].
  rewrite extract_gen_spec, C, (tforall_impl Himp t Q). reflexivity.
Qed.

Definition ne_free (t : ptree) : bool := tforall ne_ok t.              (* no `!=` leaf *)
Definition pushable (t : ptree) : bool := cmp_only t && ne_free t.     (* only non-!= PCmp / & / | *)

Theorem extract_eval : forall t d, extract t = Some d -> forall p, K p d = teval p t.
Proof. apply extract_gen_eval. Qed.

(* exact characterisation: a filter is pushed iff the tree is made of non-!= PCmp / & / | only *)
Theorem extract_Some_iff : forall t, (exists d, extract t = Some d) <-> pushable t = true.
Proof. apply extract_gen_Some_iff. Qed.

Corollary extract_None_iff : forall t, extract t = None <-> pushable t = false.
Proof.
  intros t. unfold extract, pushable, ne_free. rewrite extract_gen_spec.
  destruct (cmp_only t && tforall ne_ok t); split; congruence.
Qed.

Theorem extract_wf : forall t d, extract t = Some d -> d <> [] /\ conjs_nonempty d.
Proof. apply extract_gen_wf. Qed.

(* the fix only withdraws filters: whatever is still pushed is what the old code pushed *)
Theorem extract_refines_with_ne : forall t d, extract t = Some d -> extract_with_ne t = Some d.
Proof. intros t d. apply extract_gen_mono. reflexivity. Qed.

Theorem extract_with_ne_agrees_when_ne_free : forall t, ne_free t = true -> extract t = extract_with_ne t.
Proof.
  intros t H. unfold extract, extract_with_ne. rewrite !extract_gen_spec, tforall_true. fold (ne_free t).
  rewrite H. reflexivity.
Qed.

Theorem extract_with_ne_eval : forall t d, extract_with_ne t = Some d -> forall p, K p d = teval p t.
Proof. apply extract_gen_eval. Qed.

Theorem extract_with_ne_Some_iff : forall t, (exists d, extract_with_ne t = Some d) <-> cmp_only t = true.
Proof.
  intros t. unfold extract_with_ne. rewrite extract_gen_Some_iff, tforall_true, andb_true_r. reflexivity.
Qed.

Theorem extract_with_ne_wf : forall t d, extract_with_ne t = Some d -> d <> [] /\ conjs_nonempty d.
Proof. apply extract_gen_wf. Qed.

(* a Kleene value is known from its two Boolean readings "is true" and "is not false", and each reading turns
   arrow_eval into K *)
Definition is_true (x : option bool) : bool := match x with Some true => true | _ => false end.
Definition not_false (x : option bool) : bool := match x with Some false => false | _ => true end.

Lemma kleene_ext : forall x y, is_true x = is_true y -> not_false x = not_false y -> x = y.
Proof. intros [[|]|] [[|]|]; simpl; congruence. Qed.

Section Reading.
  Variable rho : option bool -> bool.
  Hypothesis rho_and : forall x y, rho (kand x y) = rho x && rho y.
  Hypothesis rho_or : forall x y, rho (kor x y) = rho x || rho y.
  Hypothesis rho_true : rho (Some true) = true.
  Hypothesis rho_false : rho (Some false) = false.

  Lemma arrow_eval_reading : forall d r, rho (arrow_eval d r) = K (fun a => rho (arrow_atom a r)) d.
  Proof.
    intros d r. induction d as [|c d IH]; [exact rho_false|].
    change (arrow_eval (c :: d) r) with (kor (arrow_conj c r) (arrow_eval d r)).
    cbn [K existsb]. rewrite rho_or, IH. f_equal.
    induction c as [|a c IHc]; [exact rho_true|].
    change (arrow_conj (a :: c) r) with (kand (arrow_atom a r) (arrow_conj c r)).
    cbn [forallb]. rewrite rho_and, IHc. reflexivity.
  Qed.
End Reading.

Definition atrue (r : rowv) (a : atom) : bool := is_true (arrow_atom a r).

Lemma arrow_keep_spec : forall d r, arrow_keep d r = K (atrue r) d.
Proof. intros. apply (arrow_eval_reading is_true); try reflexivity; intros [[|]|] [[|]|]; reflexivity. Qed.

(* set-equal dnfs are indistinguishable to the reader (3-valued) *)
Corollary arrow_eval_equiv : forall d1 d2 r, dnf_equiv d1 d2 -> arrow_eval d1 r = arrow_eval d2 r.
Proof.
  intros d1 d2 r H.
  apply kleene_ext; rewrite !arrow_eval_reading by (try reflexivity; intros [[|]|] [[|]|]; reflexivity);
    apply K_equiv, H.
Qed.

(* canon does not even change null-vs-false *)
Theorem canon_sound3 : forall d r, arrow_eval (canon d) r = arrow_eval d r.
Proof. intros. apply arrow_eval_equiv, canon_equiv_self. Qed.

Theorem canon_sound : forall d r, arrow_keep (canon d) r = arrow_keep d r.
Proof. intros. unfold arrow_keep. rewrite canon_sound3. reflexivity. Qed.

Lemma pandas_keep_teval : forall r t, cmp_only t = true ->
  pandas_keep t r = Some (teval (fun a => pandas_atom a r) t).
Proof. intros r. apply cmp_only_ind; simpl; [reflexivity| |]; intros l r' -> ->; reflexivity. Qed.

Definition is_some (c : cell) : bool := match c with Some _ => true | None => false end.

(* row-wise condition: every != atom looks at a column that is present in this row *)
Definition ne_safe (t : ptree) (r : rowv) : bool :=
  tforall (fun a => negb (is_ne (a_op a)) || is_some (r (a_col a))) t.

Lemma ne_free_safe : forall t r, ne_free t = true -> ne_safe t r = true.
Proof.
  intros t r. apply tforall_impl. intros a H. unfold ne_ok in H. rewrite H. reflexivity.
Qed.

Lemma teval_agree : forall {q p1 p2 : atom -> bool},
  (forall a, q a = true -> p1 a = p2 a) -> forall t, tforall q t = true -> teval p1 t = teval p2 t.
Proof.
  intros q p1 p2 Hq. induction t; simpl; intros H; auto.
  - apply andb_true_iff in H. destruct H. rewrite IHt1, IHt2; auto.
  - apply andb_true_iff in H. destruct H. rewrite IHt1, IHt2; auto.
Qed.

Lemma teval_mono : forall {p1 p2 : atom -> bool},
  (forall a, p1 a = true -> p2 a = true) -> forall t, teval p1 t = true -> teval p2 t = true.
Proof.
  intros p1 p2 Hp. induction t; simpl; intros H; auto.
  - apply andb_true_iff in H. destruct H. rewrite IHt1, IHt2; auto.
  - apply orb_true_iff in H. apply orb_true_iff. destruct H; [left|right]; auto.
Qed.

Lemma atom_agree : forall r a,
  negb (is_ne (a_op a)) || is_some (r (a_col a)) = true -> pandas_atom a r = atrue r a.
Proof.
  intros r [c o v]. unfold pandas_atom, atrue, arrow_atom. simpl.
  destruct (r c) as [x|]; simpl.
  - intros _. destruct (cmp_holds o x v); reflexivity.
  - destruct o; simpl; intros H; try reflexivity; discriminate.
Qed.

Lemma atom_under : forall r a, atrue r a = true -> pandas_atom a r = true.
Proof.
  intros r [c o v]. unfold pandas_atom, atrue, arrow_atom. simpl.
  destruct (r c) as [x|]; simpl; [|discriminate].
  destruct (cmp_holds o x v); intros; congruence.
Qed.

(* both sides of the comparison as Boolean evaluations of the tree *)
Lemma extract_gen_both : forall {ok t d} r, extract_gen ok t = Some d ->
  pandas_keep t r = Some (teval (fun a => pandas_atom a r) t) /\ arrow_keep d r = teval (atrue r) t.
Proof.
  intros ok t d r He. split.
  - apply pandas_keep_teval, (extract_gen_inv He).
  - rewrite arrow_keep_spec. apply (extract_gen_eval _ _ _ He).
Qed.

(* Row-wise soundness: the pushed filter agrees with pandas on every row in which
   no `!=` atom of the predicate reads a missing value. *)
Theorem extract_gen_sound_row : forall ok t d r,
  extract_gen ok t = Some d -> ne_safe t r = true -> pandas_keep t r = Some (arrow_keep d r).
Proof.
  intros ok t d r He Hs. destruct (extract_gen_both r He) as [-> ->]. f_equal.
  exact (teval_agree (atom_agree r) t Hs).
Qed.

(* A pushed filter NEVER lets an extra row through, whatever the leaf policy. *)
Theorem extract_gen_under_approx : forall ok t d r,
  extract_gen ok t = Some d -> arrow_keep d r = true -> pandas_keep t r = Some true.
Proof.
  intros ok t d r He. destruct (extract_gen_both r He) as [-> ->]. intros Hk. f_equal.
  exact (teval_mono (atom_under r) t Hk).
Qed.

Definition atoms_ok (q : atom -> bool) (d : dnf) : Prop := forall c a, In c d -> In a c -> q a = true.

Lemma atoms_ok_canon : forall q d, atoms_ok q d -> atoms_ok q (canon d).
Proof.
  intros q d H c a Hc Ha. destruct (proj1 (canon_equiv_self d) c Hc) as [c0 [Hc0 E]].
  apply (H c0 a Hc0), E, Ha.
Qed.

Lemma atoms_ok_normalize_and : forall q ds, Forall (atoms_ok q) ds -> atoms_ok q (normalize_and ds).
Proof.
  intros q ds H. induction H as [|d ds Hd _ IH]; [intros c a [<-|[]] []|].
  intros c a Hc Ha. apply in_flat_map in Hc. destruct Hc as [c1 [H1 H2]].
  apply in_map_iff in H2. destruct H2 as [c2 [<- H2]]. apply in_app_or in Ha.
  destruct Ha; [eapply Hd|eapply IH]; eauto.
Qed.

Lemma atoms_ok_normalize_or : forall q ds, Forall (atoms_ok q) ds -> atoms_ok q (normalize_or ds).
Proof.
  intros q ds H c a Hc Ha. apply in_concat in Hc. destruct Hc as [d [Hd Hc]].
  rewrite Forall_forall in H. eapply H; eauto.
Qed.

Lemma set2_Forall : forall (P : dnf -> Prop) l r, P l -> P r -> Forall P (set2 l r).
Proof. intros P l r Hl Hr. unfold set2. destruct (dnf_eqb l r); auto. Qed.

Lemma dnf_of_atoms_ok : forall q t, tforall q t = true -> atoms_ok q (dnf_of t).
Proof.
  intros q. induction t as [a|a|l IHl r IHr|l IHl r IHr|]; cbn [dnf_of tforall]; intros H.
  - apply atoms_ok_canon. intros c x [<-|[]] [<-|[]]. exact H.
  - intros c x [].
  - apply andb_true_iff in H. destruct H. apply atoms_ok_canon, atoms_ok_normalize_and, set2_Forall; auto.
  - apply andb_true_iff in H. destruct H. apply atoms_ok_canon, atoms_ok_normalize_or, set2_Forall; auto.
  - intros c x [].
Qed.

(* every emitted atom satisfies the leaf policy *)
Theorem extract_gen_atoms_ok : forall ok t d, extract_gen ok t = Some d -> atoms_ok ok d.
Proof. intros ok t d H. destruct (extract_gen_inv H) as [_ [Q ->]]. apply dnf_of_atoms_ok, Q. Qed.

(* the code as fixed: the pushed filter keeps exactly the rows the pandas predicate keeps, without side condition *)
Theorem dnf_sound : forall t d r,
  extract t = Some d -> pandas_keep t r = Some (arrow_keep d r).
Proof.
  intros t d r He. eapply extract_gen_sound_row; [exact He|].
  apply ne_free_safe. apply (extract_gen_inv He).
Qed.

(* so it neither adds nor loses rows *)
Corollary dnf_under_approx : forall t d r,
  extract t = Some d -> arrow_keep d r = true -> pandas_keep t r = Some true.
Proof. apply extract_gen_under_approx. Qed.

Corollary dnf_over_approx : forall t d r,
  extract t = Some d -> pandas_keep t r = Some true -> arrow_keep d r = true.
Proof. intros t d r He Hk. rewrite (dnf_sound _ _ r He) in Hk. congruence. Qed.

(* a `!=` never reaches the reader: neither as a leaf of a pushed tree nor as an emitted tuple *)
Theorem extract_no_ne : forall t d, extract t = Some d ->
  ne_free t = true /\ forall c a, In c d -> In a c -> a_op a <> CNe.
Proof.
  intros t d He. split; [apply (extract_gen_inv He)|].
  intros c a Hc Ha E. pose proof (extract_gen_atoms_ok _ _ _ He c a Hc Ha) as Q.
  unfold ne_ok in Q. rewrite E in Q. discriminate.
Qed.

Example ex_ne_not_pushed : extract (PCmp (mkatom 0 CNe 3)) = None.
Proof. reflexivity. Qed.
Example ex_ne_poisons :
  extract (PAndT (POrT (PCmp (mkatom 0 CNe 3)) (PCmp (mkatom 1 CLt 0))) (PCmp (mkatom 1 CGe 1))) = None.
Proof. reflexivity. Qed.

(* the old behaviour (extract_with_ne) is sound only away from `!=` on a missing value, and refuted in general *)
Theorem dnf_with_ne_sound : forall t d r,
  extract_with_ne t = Some d -> ne_free t = true -> pandas_keep t r = Some (arrow_keep d r).
Proof. intros t d r He Hn. eapply extract_gen_sound_row; [exact He|]. apply ne_free_safe. exact Hn. Qed.

(* rows without any missing value were always filtered correctly, whatever the operators *)
Corollary dnf_with_ne_sound_no_nulls : forall t d r,
  extract_with_ne t = Some d -> (forall c, r c <> None) -> pandas_keep t r = Some (arrow_keep d r).
Proof.
  intros t d r He Hr. eapply extract_gen_sound_row; [exact He|].
  unfold ne_safe. refine (tforall_impl _ t (tforall_true t)).
  intros a _. specialize (Hr (a_col a)). destruct (r (a_col a)); [|congruence].
  simpl. apply orb_true_r.
Qed.

(* Any row on which the old reader filter and pandas disagree is a row lost because a `!=` atom met a missing value. *)
Corollary dnf_with_ne_disagree_only_ne_null : forall t d r,
  extract_with_ne t = Some d -> pandas_keep t r <> Some (arrow_keep d r) ->
  ne_safe t r = false /\ pandas_keep t r = Some true /\ arrow_keep d r = false.
Proof.
  intros t d r He Hd.
  pose proof (extract_gen_sound_row _ _ _ r He) as Hs. pose proof (extract_gen_under_approx _ _ _ r He) as Hu.
  rewrite (proj1 (extract_gen_both r He)) in *.
  destruct (ne_safe t r); [elim Hd; apply Hs; reflexivity|].
  destruct (arrow_keep d r); [elim Hd; apply Hu; reflexivity|].
  destruct (teval (fun a => pandas_atom a r) t); [auto|congruence].
Qed.

(* The known defect of the OLD code: `a != 3` on a row where a is missing.  pandas keeps the row, pyarrow drops it. *)
Theorem dnf_with_ne_refuted : exists t d r,
  extract_with_ne t = Some d /\ pandas_keep t r = Some true /\ arrow_keep d r = false.
Proof.
  exists (PCmp (mkatom 0 CNe 3)), [[mkatom 0 CNe 3]], (fun _ => None).
  repeat split; vm_compute; reflexivity.
Qed.

(* the same defect through an OR / AND context, with a partly-present row *)
Definition row_b1 : rowv := fun c => match c with 1%nat => Some 1%Z | _ => None end.
Example dnf_with_ne_refuted_ctx :
  let t := PAndT (POrT (PCmp (mkatom 0 CNe 3)) (PCmp (mkatom 1 CLt 0))) (PCmp (mkatom 1 CGe 1)) in
  exists d, extract_with_ne t = Some d /\ pandas_keep t row_b1 = Some true /\ arrow_keep d row_b1 = false.
Proof. eexists. repeat split; vm_compute; reflexivity. Qed.

Theorem combine'_sound : forall d1 d2 r,
  arrow_keep (combine' d1 d2) r = arrow_keep d1 r && arrow_keep d2 r.
Proof.
  intros. unfold combine'. rewrite !arrow_keep_spec, K_canon, K_normalize_and, forallb_set2. reflexivity.
Qed.

(* a legal `_filters` value is None or a non-empty frozenset *)
Definition legal (d : dnf) : Prop := d <> [] /\ canon d = d.

Lemma mk_legal : forall d d', mk d = Some d' -> legal d'.
Proof.
  intros d d' H. apply mk_Some in H. destruct H as [N ->]. split; [apply canon_nonempty, N|apply canon_idem].
Qed.

Lemma of_filters_mk : forall d, of_filters (Some d) = mk d.
Proof. intros [|c d]; reflexivity. Qed.

Lemma arrow_keep_opt_Some : forall d r, d <> [] -> arrow_keep_opt (Some d) r = arrow_keep d r.
Proof. intros [|c d] r H; [congruence|reflexivity]. Qed.

Lemma of_filters_keep : forall o r, arrow_keep_opt (of_filters o) r = arrow_keep_opt o r.
Proof.
  intros [[|c d]|] r; try reflexivity.
  unfold of_filters. rewrite arrow_keep_opt_Some by (apply canon_nonempty; discriminate).
  rewrite canon_sound. reflexivity.
Qed.

Lemma of_filters_legal : forall o d, of_filters o = Some d -> legal d.
Proof. intros [d0|] d H; [|discriminate]. rewrite of_filters_mk in H. apply (mk_legal _ _ H). Qed.

(* combine, with Python's conventions: None / falsy = no filter = keep every row *)
Theorem combine_sound : forall o1 o2 r,
  arrow_keep_opt (combine o1 o2) r = arrow_keep_opt o1 r && arrow_keep_opt o2 r.
Proof.
  intros o1 o2 r.
  rewrite <- (of_filters_keep o1 r), <- (of_filters_keep o2 r). unfold combine.
  destruct (of_filters o1) as [d1|] eqn:E1; destruct (of_filters o2) as [d2|] eqn:E2.
  - destruct (of_filters_legal _ _ E1) as [N1 _], (of_filters_legal _ _ E2) as [N2 _].
    pose proof (normalize_and_set2_nonempty _ _ N1 N2) as N.
    rewrite (mk_nonempty _ N), !arrow_keep_opt_Some by (try apply canon_nonempty; assumption).
    apply combine'_sound.
  - simpl (arrow_keep_opt None r). rewrite andb_true_r. reflexivity.
  - reflexivity.
  - reflexivity.
Qed.

Lemma combine_legal : forall o1 o2 d, combine o1 o2 = Some d -> legal d.
Proof.
  intros o1 o2 d. unfold combine.
  destruct (of_filters o1) as [d1|] eqn:E1; destruct (of_filters o2) as [d2|] eqn:E2; intros H.
  - apply (mk_legal _ _ H).
  - rewrite H in E1. apply (of_filters_legal _ _ E1).
  - rewrite H in E2. apply (of_filters_legal _ _ E2).
  - discriminate.
Qed.

(* the result of combine is again a legal `_filters` value: None or a non-empty set *)
Theorem combine_wf : forall o1 o2 d, combine o1 o2 = Some d -> d <> [].
Proof. intros o1 o2 d H. apply (combine_legal _ _ _ H). Qed.

(* everything extract / combine return is already canonical *)
Theorem combine_canonical : forall o1 o2 d, combine o1 o2 = Some d -> canon d = d.
Proof. intros o1 o2 d H. apply (combine_legal _ _ _ H). Qed.

Theorem extract_gen_canonical : forall ok t d, extract_gen ok t = Some d -> canon d = d.
Proof.
  intros ok t d H. destruct (extract_gen_inv H) as [C [_ ->]].
  destruct t; try discriminate; apply canon_idem.
Qed.

Theorem extract_canonical : forall t d, extract t = Some d -> canon d = d.
Proof. apply extract_gen_canonical. Qed.

(* pushing `t` on top of user filters `o` = user filters AND pandas predicate *)
Corollary pushdown_with_user_filters_sound : forall t d o r,
  extract t = Some d ->
  Some (arrow_keep_opt (combine o (Some d)) r) = obind2 andb (Some (arrow_keep_opt o r)) (pandas_keep t r).
Proof.
  intros t d o r He. rewrite combine_sound, (dnf_sound _ _ r He).
  rewrite arrow_keep_opt_Some by (apply (extract_wf _ _ He)). reflexivity.
Qed.

Definition A_lt3 := PCmp (mkatom 0 CLt 3).
Definition B_ge1 := PCmp (mkatom 1 CGe 1).
Definition C_eq2 := PCmp (mkatom 2 CEq 2).

(* (a<3 & b>=1) | (a<3 & c==2)  : two conjunctions *)
Example ex_two_conj :
  extract (POrT (PAndT A_lt3 B_ge1) (PAndT A_lt3 C_eq2))
  = Some [ [mkatom 0 CLt 3; mkatom 1 CGe 1]; [mkatom 0 CLt 3; mkatom 2 CEq 2] ].
Proof. vm_compute. reflexivity. Qed.

(* (x|y) & (z|w) : four conjunctions *)
Definition X := PCmp (mkatom 0 CLt 0).
Definition Y := PCmp (mkatom 1 CGt 5).
Definition Zt := PCmp (mkatom 2 CEq 7).
Definition W := PCmp (mkatom 3 CLe 9).
Example ex_four_conj :
  option_map (@length _) (extract (PAndT (POrT X Y) (POrT Zt W))) = Some 4%nat.
Proof. vm_compute. reflexivity. Qed.
Example ex_four_conj_full :
  extract (PAndT (POrT X Y) (POrT Zt W))
  = Some [ [mkatom 0 CLt 0; mkatom 2 CEq 7]; [mkatom 0 CLt 0; mkatom 3 CLe 9];
           [mkatom 1 CGt 5; mkatom 2 CEq 7]; [mkatom 1 CGt 5; mkatom 3 CLe 9] ].
Proof. vm_compute. reflexivity. Qed.

(* frozenset collapse `_And([left, right])` with left == right : (x|y)&(x|y) stays {x},{y}; the
   plain cartesian product would give {x},{x,y},{y} *)
Example ex_and_collapse :
  extract (PAndT (POrT X Y) (POrT Y X)) = Some [ [mkatom 0 CLt 0]; [mkatom 1 CGt 5] ].
Proof. vm_compute. reflexivity. Qed.
Example ex_product_without_collapse :
  canon (normalize_and [ [[mkatom 0 CLt 0]; [mkatom 1 CGt 5]]; [[mkatom 0 CLt 0]; [mkatom 1 CGt 5]] ])
  = [ [mkatom 0 CLt 0]; [mkatom 0 CLt 0; mkatom 1 CGt 5]; [mkatom 1 CGt 5] ].
Proof. vm_compute. reflexivity. Qed.

(* literal on the left is never pushed (dead `elif`), and poisons the whole tree *)
Example ex_flip_not_pushed : extract (PCmpFlip (mkatom 0 CLt 3)) = None.
Proof. reflexivity. Qed.
Example ex_flip_poisons : extract (PAndT A_lt3 (PCmpFlip (mkatom 1 CLt 3))) = None.
Proof. reflexivity. Qed.
Example ex_other_poisons : extract (POrT A_lt3 POther) = None.
Proof. reflexivity. Qed.

(* Latent defect in the dead branch: if its guard were repaired as obviously intended, its body would emit the
   operator UNFLIPPED (`flip.get(op, op)` is keyed by the instance, not the class): `3 < a` would be pushed as
   `a < 3`.  Witness a = 5 : pandas keeps the row, the reader would drop it; a = 0 : the converse. *)
Definition row_a (v : Z) : rowv := fun c => match c with 0%nat => Some v | _ => None end.
Theorem dead_branch_body_wrong :
  let a := mkatom 0 CLt 3 in
  pandas_keep (PCmpFlip a) (row_a 5) = Some true /\ arrow_keep [[dead_branch_atom a]] (row_a 5) = false /\
  pandas_keep (PCmpFlip a) (row_a 0) = Some false /\ arrow_keep [[dead_branch_atom a]] (row_a 0) = true.
Proof. repeat split; vm_compute; reflexivity. Qed.

(* size: the product is exponential -- n two-way ORs and-ed together give 2^n conjunctions *)
Lemma normalize_and_length : forall ds,
  length (normalize_and ds) = fold_right (fun d acc => (length d * acc)%nat) 1%nat ds.
Proof.
  induction ds as [|d ds IH]; [reflexivity|].
  rewrite normalize_and_cons. cbn [fold_right]. rewrite <- IH. generalize (normalize_and ds) as acc. intros acc.
  induction d as [|c d IHd]; simpl; [reflexivity|].
  rewrite app_length, map_length, IHd. reflexivity.
Qed.

Print Assumptions dnf_sound.
Print Assumptions dnf_under_approx.
Print Assumptions dnf_over_approx.
Print Assumptions extract_no_ne.
Print Assumptions extract_refines_with_ne.
Print Assumptions extract_with_ne_agrees_when_ne_free.
Print Assumptions extract_Some_iff.
Print Assumptions extract_None_iff.
Print Assumptions extract_wf.
Print Assumptions extract_eval.
Print Assumptions extract_canonical.
Print Assumptions pushdown_with_user_filters_sound.
Print Assumptions combine_sound.
Print Assumptions combine'_sound.
Print Assumptions combine_wf.
Print Assumptions combine_canonical.
Print Assumptions canon_sound.
Print Assumptions canon_sound3.
Print Assumptions canon_complete.
Print Assumptions canon_iff.
Print Assumptions canon_idem.
Print Assumptions dnf_eqb_iff.
Print Assumptions arrow_eval_equiv.
Print Assumptions normalize_and_length.
Print Assumptions dead_branch_body_wrong.
Print Assumptions extract_gen_sound_row.
Print Assumptions extract_gen_under_approx.
Print Assumptions extract_gen_eval.
Print Assumptions extract_gen_Some_iff.
Print Assumptions extract_gen_wf.
Print Assumptions extract_gen_atoms_ok.
Print Assumptions extract_gen_canonical.
Print Assumptions dnf_with_ne_refuted.
Print Assumptions dnf_with_ne_sound.
Print Assumptions dnf_with_ne_sound_no_nulls.
Print Assumptions dnf_with_ne_disagree_only_ne_null.
Print Assumptions extract_with_ne_Some_iff.
Print Assumptions extract_with_ne_wf.
Print Assumptions extract_with_ne_eval.

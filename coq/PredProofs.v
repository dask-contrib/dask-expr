(* PredProofs.v -- OR-factoring (rewrite_filters) is justified for two-valued valuations, where a big conjunction /
   disjunction is forallb / existsb over the set of its members; a Kleene value is known from its two Boolean readings
   "is true" and "is not false", each of which commutes with And / Or: hence the three-valued theorem. *)
From DX Require Import Base ListFacts Pred.

Lemma pred_eqb_eq : forall p q, pred_eqb p q = true <-> p = q.
Proof.
  induction p; destruct q; simpl; try (split; discriminate).
  - rewrite Nat.eqb_eq. split; congruence.
  - rewrite andb_true_iff, IHp1, IHp2. intuition congruence.
  - rewrite andb_true_iff, IHp1, IHp2. intuition congruence.
Qed.

Lemma mem_In : forall x l, mem x l = true <-> In x l.
Proof. exact (existsb_eqb_In pred_eqb pred_eqb_eq). Qed.

Lemma dedup_acc_In : forall l seen x, In x (dedup_acc seen l) <-> In x l /\ ~ In x seen.
Proof.
  induction l as [|a l IH]; intros seen x; simpl; [tauto|].
  destruct (mem a seen) eqn:E; simpl; rewrite IH; simpl.
  - apply mem_In in E. intuition (subst; tauto).
  - assert (~ In a seen) by (rewrite <- mem_In, E; discriminate).
    destruct (pred_eqb a x) eqn:Eq; [apply pred_eqb_eq in Eq; subst; tauto|].
    assert (a <> x) by (rewrite <- pred_eqb_eq, Eq; discriminate). tauto.
Qed.

Lemma mapping_In : forall p x, In x (mapping p) <-> In x (comps_and p).
Proof. intros. unfold mapping, dedup. rewrite dedup_acc_In. simpl. tauto. Qed.

Lemma k3_or_idem : forall a, k3_or a a = a.
Proof. destruct a; reflexivity. Qed.
Lemma k3_or_and_distr : forall a b c, k3_or a (k3_and b c) = k3_and (k3_or a b) (k3_or a c).
Proof. destruct a, b, c; reflexivity. Qed.
Lemma k3_and_absorb : forall a b, k3_and a (k3_or a b) = a.
Proof. destruct a, b; reflexivity. Qed.

Definition k3_is_true (x : k3) : bool := match x with KT => true | _ => false end.
Definition k3_not_false (x : k3) : bool := match x with KF => false | _ => true end.

Lemma k3_ext : forall x y, k3_is_true x = k3_is_true y -> k3_not_false x = k3_not_false y -> x = y.
Proof. intros [] []; simpl; congruence. Qed.

Fixpoint beval (b : nat -> bool) (p : pred) : bool :=
  match p with
  | PAtom n => b n
  | PAnd x y => beval b x && beval b y
  | POr x y => beval b x || beval b y
  end.

Lemma eval_reading : forall rho : k3 -> bool,
  (forall x y, rho (k3_and x y) = rho x && rho y) -> (forall x y, rho (k3_or x y) = rho x || rho y) ->
  forall v p, rho (eval v p) = beval (fun n => rho (v n)) p.
Proof. intros rho Hand Hor v. induction p; simpl; rewrite ?Hand, ?Hor, ?IHp1, ?IHp2; reflexivity. Qed.

Section Bool.
  Variable b : nat -> bool.

  Lemma beval_comps_and : forall p, beval b p = forallb (beval b) (comps_and p).
  Proof.
    induction p; simpl; try (rewrite andb_true_r; reflexivity).
    rewrite forallb_app. rewrite <- IHp1, <- IHp2. reflexivity.
  Qed.

  Lemma beval_comps_or : forall p, beval b p = existsb (beval b) (comps_or p).
  Proof.
    induction p; simpl; try (rewrite orb_false_r; reflexivity).
    rewrite existsb_app. rewrite <- IHp1, <- IHp2. reflexivity.
  Qed.

  Lemma beval_conj : forall xs x, beval b (conj x xs) = forallb (beval b) (x :: xs).
  Proof.
    unfold conj. induction xs as [|y xs IH]; intros x; simpl.
    - rewrite andb_true_r. reflexivity.
    - rewrite IH. simpl. rewrite andb_assoc. reflexivity.
  Qed.

  Lemma beval_disj : forall xs x, beval b (disj x xs) = existsb (beval b) (x :: xs).
  Proof.
    unfold disj. induction xs as [|y xs IH]; intros x; simpl.
    - rewrite orb_false_r. reflexivity.
    - rewrite IH. simpl. rewrite orb_assoc. reflexivity.
  Qed.

  Lemma beval_mapping : forall p, forallb (beval b) (mapping p) = beval b p.
  Proof.
    intros p. rewrite beval_comps_and. apply eq_iff_eq_true. rewrite !forallb_forall.
    split; intros H x Hx; apply H, mapping_In, Hx.
  Qed.

  Lemma beval_mappings : forall ps, existsb (forallb (beval b)) (map mapping ps) = existsb (beval b) ps.
  Proof. induction ps as [|p ps IH]; simpl; [reflexivity|]. rewrite IH, beval_mapping. reflexivity. Qed.

  Definition kept (repl comp : list pred) : list pred := filter (fun c => negb (mem c repl)) comp.

  (* every or-component is R /\ K: R the conjunction of the common conjuncts repl, K that of the conjuncts it keeps *)
  Lemma comp_factor : forall repl comp, incl repl comp ->
    forallb (beval b) comp = forallb (beval b) repl && forallb (beval b) (kept repl comp).
  Proof.
    intros repl comp Hi. apply eq_iff_eq_true. rewrite andb_true_iff, !forallb_forall. unfold kept. split.
    - intros H. split; intros x Hx; apply H; [apply Hi, Hx|apply filter_In in Hx; apply Hx].
    - intros [H1 H2] x Hx. destruct (mem x repl) eqn:E; [apply H1, mem_In, E|].
      apply H2, filter_In. rewrite E. auto.
  Qed.

  Lemma or_comps_factor : forall repl comps, Forall (incl repl) comps ->
    existsb (forallb (beval b)) comps = forallb (beval b) repl && existsb (forallb (beval b)) (map (kept repl) comps).
  Proof.
    intros repl comps H. induction H as [|c comps Hc _ IH]; simpl.
    - rewrite andb_false_r. reflexivity.
    - rewrite IH, (comp_factor _ _ Hc), <- andb_orb_distrib_r. reflexivity.
  Qed.

  (* one disjunct per component, the conjunction of what it keeps; the early return (None): some component keeps
     nothing, so it is just R and absorbs the others *)
  Lemma result_components_spec : forall repl comps,
    match result_components comps repl with
    | Some r => length r = length comps /\ existsb (beval b) r = existsb (forallb (beval b)) (map (kept repl) comps)
    | None => existsb (forallb (beval b)) (map (kept repl) comps) = true
    end.
  Proof.
    induction comps as [|a comps IH]; simpl; [auto|].
    fold (kept repl a). destruct (kept repl a) as [|k0 ks]; [reflexivity|].
    destruct (result_components comps repl) as [r|].
    - destruct IH as [L E]. simpl. rewrite beval_conj, E, L. auto.
    - rewrite IH. apply orb_true_r.
  Qed.

  Lemma replace_common_sound : forall first rest r,
    replace_common first rest = Some r -> beval b r = existsb (beval b) (first :: rest).
  Proof.
    intros first rest r. rewrite <- beval_mappings. unfold replace_common. cbn [map].
    set (m := mapping first). set (ands := map mapping rest).
    destruct (filter (fun c => forallb (mem c) ands) m) as [|r0 rs] eqn:EF; [discriminate|].
    assert (HF : Forall (incl (r0 :: rs)) (m :: ands)).
    { rewrite <- EF. constructor; [apply incl_filter|].
      apply Forall_forall. intros comp Hc x Hx. apply filter_In in Hx. destruct Hx as [_ Hx].
      rewrite forallb_forall in Hx. apply mem_In, Hx, Hc. }
    rewrite (or_comps_factor _ _ HF).
    pose proof (result_components_spec (r0 :: rs) (m :: ands)) as HR.
    destruct (result_components (m :: ands) (r0 :: rs)) as [[|c0 cs]|]; intros H; inversion H; subst r; clear H.
    - destruct HR as [L _]. discriminate L.
    - destruct HR as [_ E]. cbn [beval]. rewrite beval_conj, beval_disj, E. reflexivity.
    - rewrite beval_conj, HR, andb_true_r. reflexivity.
  Qed.

  Theorem or_factoring_beval : forall p, beval b (rewrite_filters p) = beval b p.
  Proof.
    intros p. unfold rewrite_filters.
    destruct (comps_or p) as [|first rest] eqn:E; [reflexivity|].
    destruct rest as [|c2 rest]; [reflexivity|].
    destruct (replace_common first (c2 :: rest)) as [r|] eqn:ER; [|reflexivity].
    rewrite (replace_common_sound _ _ _ ER), <- E. symmetry. apply beval_comps_or.
  Qed.
End Bool.

Theorem or_factoring_sound : forall (p : pred) (v : nat -> k3), eval v (rewrite_filters p) = eval v p.
Proof.
  intros p v. apply k3_ext; rewrite !eval_reading by (intros [] []; reflexivity); apply or_factoring_beval.
Qed.

Corollary or_factoring_keeps : forall p v, keeps v (rewrite_filters p) = keeps v p.
Proof. intros. unfold keeps. rewrite or_factoring_sound. reflexivity. Qed.

Corollary or_factoring_bool : forall p (b : nat -> bool),
  keeps (fun n => if b n then KT else KF) (rewrite_filters p) = keeps (fun n => if b n then KT else KF) p.
Proof. intros. apply or_factoring_keeps. Qed.

Definition A := PAtom 0. Definition B := PAtom 1. Definition C := PAtom 2. Definition D := PAtom 3.

Example factoring_fires :
  rewrite_filters (POr (POr (PAnd A B) (PAnd A C)) (PAnd (PAnd A B) D))
  = PAnd A (POr (POr B C) (PAnd B D)).
Proof. vm_compute. reflexivity. Qed.

Example factoring_changes :
  pred_eqb (rewrite_filters (POr (POr (PAnd A B) (PAnd A C)) (PAnd (PAnd A B) D)))
           (POr (POr (PAnd A B) (PAnd A C)) (PAnd (PAnd A B) D)) = false.
Proof. vm_compute. reflexivity. Qed.

Example factoring_changes_neq :
  rewrite_filters (POr (POr (PAnd A B) (PAnd A C)) (PAnd (PAnd A B) D))
  <> POr (POr (PAnd A B) (PAnd A C)) (PAnd (PAnd A B) D).
Proof. vm_compute. discriminate. Qed.

Example absorbed_case : rewrite_filters (POr (PAnd A B) A) = A.
Proof. vm_compute. reflexivity. Qed.

Example no_common_unchanged : rewrite_filters (POr (PAnd A B) (PAnd C D)) = POr (PAnd A B) (PAnd C D).
Proof. vm_compute. reflexivity. Qed.

Print Assumptions or_factoring_keeps.
Print Assumptions or_factoring_bool.
Print Assumptions or_factoring_sound.

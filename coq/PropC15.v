(* PropC15.v -- property C15: planner caches are transparent.  Statements only (LRU.v models the class LRU of
   _util.py op for op -- compared exhaustively with the real class on every run -- and the cached-call pattern
   of _get_divisions / _get_mem_usages / _divisions_and_locations). *)
From DX Require Import Base LRU.

(* every call through the cache returns f key, whatever was computed, evicted or overwritten before, for every
   capacity >= 1; the cache never holds two values for one key nor more than maxsize entries *)
Theorem C15_lru_transparent : forall (V : Type) (f : nat -> option V) ks s,
  Inv V f s -> fst (session V f s ks) = map f ks /\ Inv V f (snd (session V f s ks)).
Proof. exact lru_transparent. Qed.
Print Assumptions C15_lru_transparent.

(* a failed computation leaves nothing behind *)
Theorem C15_fail_atomic : forall (V : Type) (f : nat -> option V) s k, Inv V f s -> f k = None -> cached_call V f s k = (None, s).
Proof. exact fail_atomic. Qed.
Print Assumptions C15_fail_atomic.

Theorem C15_empty_cache_ok : forall (V : Type) (f : nat -> option V) m, 1 <= m -> Inv V f {| items := nil; maxsize := m |}.
Proof. exact inv_empty. Qed.
Print Assumptions C15_empty_cache_ok.

(* T-GEN: no _divisions/_meta/_layer/_task/_lower/npartitions method of the current source reads a process-global mutable
   container without the recompute fallback of the cached-call pattern *)
From DX Require Import GeneratedClassTable ClassTableState.
Theorem C15_state_free_table : state_free_b = true.
Proof. exact state_free_table. Qed.
Print Assumptions C15_state_free_table.

(* T-GEN: the process-global mutable state found in the current source is exactly the reviewed one (a new cache / memo table /
   registry, or a reviewed one read from a new function, breaks this obligation until it has been reviewed) *)
Theorem C15_global_state_reviewed :
  subset_b mutable_globals mutable_globals_reviewed = true /\ subset_b function_global_reads function_global_reads_reviewed = true.
Proof. exact (conj global_state_reviewed function_global_reads_are_reviewed). Qed.
Print Assumptions C15_global_state_reviewed.

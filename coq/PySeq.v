(* PySeq.v -- the fragment of Python's sequence semantics that harness/gen_source.py (T-SRC) translates method bodies
   into: indexing with negative indices, slicing with clamping, len, range.  Hand-written.
   Out-of-range indexing raises IndexError in Python; here it returns a default, so every statement about a generated
   function carries explicit in-range hypotheses. *)
From Coq Require Import ZArith List Lia.
From DX Require Import ListFacts.
Import ListNotations.
Open Scope Z_scope.

Definition py_len {A : Type} (l : list A) : Z := Z.of_nat (length l).

(* negative indices count from the end *)
Definition py_norm {A : Type} (l : list A) (i : Z) : Z := if i <? 0 then py_len l + i else i.

Definition py_index {A : Type} (d : A) (l : list A) (i : Z) : A :=
  let j := py_norm l i in if j <? 0 then d else nth (Z.to_nat j) l d.

(* slice bounds are clamped into [0, len] *)
Definition py_clamp {A : Type} (l : list A) (i : Z) : nat :=
  let j := py_norm l i in if j <? 0 then 0%nat else Nat.min (Z.to_nat j) (length l).

Definition py_slice {A : Type} (l : list A) (lo hi : option Z) : list A :=
  let a := match lo with None => 0%nat | Some i => py_clamp l i end in
  let b := match hi with None => length l | Some i => py_clamp l i end in
  firstn (b - a) (skipn a l).

Definition py_range (n : Z) : list Z := map Z.of_nat (seq 0 (Z.to_nat n)).

(* `x is None` for an element of a sequence of known (integer) values *)
Definition py_is_none_Z (x : Z) : bool := false.

(* what a _divisions() method returns: a tuple of values, or (None,) * n *)
Inductive pydivs := Known (l : list Z) | Unknown (n : Z).

Lemma py_index_nonneg : forall (A : Type) (d : A) (l : list A) (i : Z),
  0 <= i -> py_index d l i = nth (Z.to_nat i) l d.
Proof. intros A d l i H. unfold py_index, py_norm. destruct (i <? 0) eqn:E; [lia|]. rewrite E. reflexivity. Qed.

Lemma py_index_nat : forall (A : Type) (d : A) (l : list A) (n : nat),
  py_index d l (Z.of_nat n) = nth n l d.
Proof. intros. rewrite py_index_nonneg by lia. rewrite Nat2Z.id. reflexivity. Qed.

Lemma py_index_neg : forall (A : Type) (d : A) (l : list A) (k : nat),
  (1 <= k <= length l)%nat -> py_index d l (- Z.of_nat k) = nth (length l - k) l d.
Proof.
  intros A d l k H. unfold py_index, py_norm, py_len.
  destruct (- Z.of_nat k <? 0) eqn:E; [|lia].
  destruct (Z.of_nat (length l) + - Z.of_nat k <? 0) eqn:E2; [lia|].
  f_equal. lia.
Qed.

(* l[-1] = last l d, also for the empty list (both sides are the default) *)
Lemma py_index_m1_last : forall (A : Type) (d : A) (l : list A), py_index d l (-1) = last l d.
Proof.
  intros A d l. destruct l as [|a l]; [reflexivity|].
  change (-1) with (- Z.of_nat 1). rewrite py_index_neg.
  - symmetry. apply last_nth.
  - simpl. lia.
Qed.

Lemma py_index_last : forall (l : list Z), l <> [] -> py_index 0 l (-1) = last l 0.
Proof. intros l _. apply py_index_m1_last. Qed.

Lemma py_index_0_hd : forall (A : Type) (d : A) (l : list A), py_index d l 0 = hd d l.
Proof. intros A d l. change 0 with (Z.of_nat 0). rewrite py_index_nat. destruct l; reflexivity. Qed.

Lemma py_index_0_nth : forall (A : Type) (d : A) (l : list A), py_index d l 0 = nth 0%nat l d.
Proof. intros A d l. change 0 with (Z.of_nat 0). apply py_index_nat. Qed.

Lemma py_index_succ : forall (A : Type) (d : A) (l : list A) (n : nat),
  py_index d l (Z.of_nat n + 1) = nth (S n) l d.
Proof. intros. replace (Z.of_nat n + 1) with (Z.of_nat (S n)) by lia. apply py_index_nat. Qed.

Lemma py_clamp_nat : forall (A : Type) (l : list A) (k : nat), py_clamp l (Z.of_nat k) = Nat.min k (length l).
Proof.
  intros. unfold py_clamp, py_norm. destruct (Z.of_nat k <? 0) eqn:E; [lia|]. rewrite E, Nat2Z.id. reflexivity.
Qed.

Lemma py_clamp_neg : forall (A : Type) (l : list A) (k : nat),
  (1 <= k)%nat -> py_clamp l (- Z.of_nat k) = (length l - k)%nat.
Proof.
  intros A l k Hk. unfold py_clamp, py_norm, py_len. destruct (- Z.of_nat k <? 0) eqn:E; [|lia].
  destruct (Z.of_nat (length l) + - Z.of_nat k <? 0) eqn:E2; lia.
Qed.

Lemma py_slice_to : forall (A : Type) (l : list A) (k : nat),
  py_slice l None (Some (Z.of_nat k)) = firstn k l.
Proof.
  intros. unfold py_slice. rewrite py_clamp_nat, Nat.sub_0_r. cbn [skipn].
  destruct (Nat.min_spec k (length l)) as [[H ->]|[H ->]]; [reflexivity|]. rewrite !firstn_all2 by lia. reflexivity.
Qed.

Lemma py_slice_from : forall (A : Type) (l : list A) (k : nat),
  py_slice l (Some (Z.of_nat k)) None = skipn k l.
Proof.
  intros. unfold py_slice. rewrite py_clamp_nat.
  destruct (Nat.min_spec k (length l)) as [[H ->]|[H ->]].
  - apply firstn_all2. rewrite skipn_length. lia.
  - rewrite Nat.sub_diag, !skipn_all2 by lia. reflexivity.
Qed.

Lemma py_slice_from_end : forall (A : Type) (l : list A) (k : nat),
  (1 <= k)%nat -> py_slice l (Some (- Z.of_nat k)) None = skipn (length l - k) l.
Proof.
  intros A l k Hk. unfold py_slice. rewrite py_clamp_neg by exact Hk. apply firstn_all2. rewrite skipn_length. lia.
Qed.

Lemma py_slice_drop_last : forall (A : Type) (l : list A),
  py_slice l None (Some (-1)) = removelast l.
Proof.
  intros A l. unfold py_slice. change (-1) with (- Z.of_nat 1). rewrite py_clamp_neg, Nat.sub_0_r by lia.
  rewrite removelast_firstn_len, Nat.sub_1_r. reflexivity.
Qed.

Lemma py_range_nat : forall n : nat, py_range (Z.of_nat n) = map Z.of_nat (seq 0 n).
Proof. intros. unfold py_range. rewrite Nat2Z.id. reflexivity. Qed.

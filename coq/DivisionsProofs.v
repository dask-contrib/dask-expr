(* DivisionsProofs.v -- the divisions reported by the operators of Divisions.v are truthful for the partitions they
   compute; the unfixed formulas are refuted by witnesses. *)
From DX Require Import Base ListFacts Divisions.

Lemma hd_In : forall (l : list nat), l <> [] -> In (hd 0 l) l.
Proof. intros [|a l] H; [congruence|left; reflexivity]. Qed.

Lemma In_firstn_weak : forall {A} (l : list A) k y, In y (firstn k l) -> In y l.
Proof. intros A l k y H. rewrite <- (firstn_skipn k l). apply in_or_app. left. exact H. Qed.

Lemma In_skipn_weak : forall {A} k (l : list A) y, In y (skipn k l) -> In y l.
Proof. intros A k l y H. rewrite <- (firstn_skipn k l). apply in_or_app. right. exact H. Qed.

(* A test on every pair of neighbours.  The model's strictly_increasingb, nondecreasingb, separatedb (Divisions.v),
   separatedb_mm, touchingb_mm, nondecreasingZb (MinMax.v) are this fixpoint at one relation each, up to conversion. *)
Section Adj.
  Variables (A : Type) (r : A -> A -> bool).

  Fixpoint adjb (l : list A) : bool :=
    match l with
    | a :: ((b :: _) as t) => r a b && adjb t
    | _ => true
    end.

  Lemma adjb_nth : forall d l,
    adjb l = true <-> forall i, S i < length l -> r (nth i l d) (nth (S i) l d) = true.
  Proof.
    intros d. induction l as [|a [|b t] IH].
    - split; [intros _ i Hi; simpl in Hi; lia|reflexivity].
    - split; [intros _ i Hi; simpl in Hi; lia|reflexivity].
    - change (adjb (a :: b :: t)) with (r a b && adjb (b :: t)). rewrite andb_true_iff, IH. split.
      + intros [Hab Ht] [|i] Hi; [exact Hab|]. apply (Ht i). simpl in *. lia.
      + intros H. split; [apply (H 0); simpl; lia|]. intros i Hi. apply (H (S i)). simpl in *. lia.
  Qed.
End Adj.
Arguments adjb {A} r l.
Arguments adjb_nth {A} r d l.

Lemma strictly_increasingb_adjb : forall l, strictly_increasingb l = adjb Nat.ltb l.
Proof. reflexivity. Qed.

Lemma nondecreasingb_adjb : forall l, nondecreasingb l = adjb Nat.leb l.
Proof. reflexivity. Qed.

Lemma separatedb_adjb : forall ds, separatedb ds = adjb (fun A B => (last A 0 <? hd 0 B)%Z) ds.
Proof. reflexivity. Qed.

Lemma adjb_map : forall {A B} (r : B -> B -> bool) (f : A -> B) (l : list A),
  adjb r (map f l) = adjb (fun a b => r (f a) (f b)) l.
Proof.
  intros A B r f. induction l as [|a [|b t] IH]; [reflexivity|reflexivity|].
  change (r (f a) (f b) && adjb r (map f (b :: t)) = r (f a) (f b) && adjb (fun a b => r (f a) (f b)) (b :: t)).
  rewrite IH. reflexivity.
Qed.

Lemma adjb_ext : forall {A} (r r' : A -> A -> bool) (l : list A),
  (forall a b, r a b = r' a b) -> adjb r l = adjb r' l.
Proof.
  intros A r r' l H. induction l as [|a [|b t] IH]; [reflexivity|reflexivity|].
  change (r a b && adjb r (b :: t) = r' a b && adjb r' (b :: t)). rewrite H, IH. reflexivity.
Qed.

Lemma forallb_map : forall {A B} (f : B -> bool) (g : A -> B) (l : list A),
  forallb f (map g l) = forallb (fun x => f (g x)) l.
Proof. intros. induction l as [|a l IH]; [reflexivity|]. simpl. rewrite IH. reflexivity. Qed.

(* the same test written with zip(l, l[1:]) and with range(len(l) - 1) *)
Lemma adjb_combine : forall {A} (r : A -> A -> bool) (l : list A),
  adjb r l = forallb (fun '(a, b) => r a b) (combine l (skipn 1 l)).
Proof.
  intros A r. induction l as [|a [|b t] IH]; [reflexivity|reflexivity|].
  change (adjb r (a :: b :: t)) with (r a b && adjb r (b :: t)). rewrite IH. reflexivity.
Qed.

Lemma adjb_seq : forall {A} (r : A -> A -> bool) (d : A) (l : list A),
  adjb r l = forallb (fun i => r (nth i l d) (nth (S i) l d)) (seq 0 (length l - 1)).
Proof.
  intros A r d. induction l as [|a [|b t] IH]; [reflexivity|reflexivity|].
  change (adjb r (a :: b :: t)) with (r a b && adjb r (b :: t)). rewrite IH.
  replace (length (a :: b :: t) - 1) with (S (length (b :: t) - 1)) by (simpl; lia).
  rewrite <- cons_seq, <- seq_shift. cbn [forallb]. rewrite forallb_map. reflexivity.
Qed.

Lemma sortedZ_le : forall (l : list Z) (i j : nat),
  sortedZ l -> i <= j -> j < length l -> (nth i l 0 <= nth j l 0)%Z.
Proof. intros l i j Hs. apply (adjacent_mono Z.le Z.le_refl Z.le_trans (fun t => nth t l 0%Z) _ Hs). Qed.

Definition nondec (l : list nat) : Prop := forall i, S i < length l -> nth i l 0 <= nth (S i) l 0.
Definition sinc (l : list nat) : Prop := forall i, S i < length l -> nth i l 0 < nth (S i) l 0.

Lemma nondec_le : forall (l : list nat) (i j : nat),
  nondec l -> i <= j -> j < length l -> nth i l 0 <= nth j l 0.
Proof. intros l i j Hs. apply (adjacent_mono le Nat.le_refl Nat.le_trans (fun t => nth t l 0) _ Hs). Qed.

Lemma sinc_nondec : forall l, sinc l -> nondec l.
Proof. intros l H i Hi. specialize (H i Hi). lia. Qed.

Lemma sinc_lt : forall l i j, sinc l -> i < j -> j < length l -> nth i l 0 < nth j l 0.
Proof.
  intros l i j Hs Hij Hj. pose proof (nondec_le l (S i) j (sinc_nondec l Hs)). specialize (Hs i). lia.
Qed.

Lemma sinc_range : forall l p, sinc l -> In p l -> hd 0 l <= p <= last l 0.
Proof.
  intros l p Hs Hp. apply (In_nth _ _ 0) in Hp. destruct Hp as (i & Hi & <-). rewrite hd_nth0, last_nth.
  apply sinc_nondec in Hs. split; apply nondec_le; auto; lia.
Qed.

Lemma sinc_app : forall a b, sinc (a ++ b) -> sinc a /\ sinc b /\ forall x y, In x a -> In y b -> x < y.
Proof.
  intros a b H. split; [|split].
  - intros i Hi. specialize (H i). rewrite app_length, !app_nth1 in H by lia. apply H. lia.
  - intros i Hi. specialize (H (length a + i)). rewrite app_length, <- Nat.add_succ_r, !app_nth2_plus in H.
    apply H. lia.
  - intros x y Hx Hy. apply (In_nth _ _ 0) in Hx, Hy. destruct Hx as (i & Hi & <-), Hy as (j & Hj & <-).
    rewrite <- (app_nth1 a b 0 Hi), <- (app_nth2_plus a b 0 j). apply sinc_lt; [exact H|lia|rewrite app_length; lia].
Qed.

Lemma nondecreasingb_spec : forall l, nondecreasingb l = true <-> nondec l.
Proof.
  intros l. rewrite nondecreasingb_adjb, (adjb_nth Nat.leb 0).
  split; intros H i Hi; apply Nat.leb_le, H, Hi.
Qed.

Lemma strictly_increasingb_spec : forall l, strictly_increasingb l = true <-> sinc l.
Proof.
  intros l. rewrite strictly_increasingb_adjb, (adjb_nth Nat.ltb 0).
  split; intros H i Hi; apply Nat.ltb_lt, H, Hi.
Qed.

Lemma sortedZb_spec : forall l, sortedZb l = true <-> sortedZ l.
Proof.
  intros l. unfold sortedZb, sortedZ. rewrite forallb_seq.
  split; intros H i Hi; apply Z.leb_le, H; lia.
Qed.

Lemma row_okb_spec : forall divs n i x, row_okb divs n i x = true <-> row_ok divs n i x.
Proof.
  intros. unfold row_okb, row_ok.
  rewrite andb_true_iff, orb_true_iff, andb_true_iff, Z.ltb_lt, Nat.eqb_eq, !Z.leb_le.
  reflexivity.
Qed.

Theorem truthfulb_spec : forall divs parts, truthfulb divs parts = true <-> truthful divs parts.
Proof.
  intros divs parts. unfold truthfulb, truthful.
  rewrite !andb_true_iff, Nat.eqb_eq, sortedZb_spec, forallb_seq.
  setoid_rewrite forallb_forall. setoid_rewrite row_okb_spec.
  split.
  - intros [[Hl Hs] Hr]. split; [exact Hl|]. split; [exact Hs|]. intros i x Hi. apply Hr. lia.
  - intros (Hl & Hs & Hr). split; [split; assumption|]. intros i Hi x. apply Hr. lia.
Qed.

Corollary truthfulb_false : forall divs parts, truthfulb divs parts = false -> ~ truthful divs parts.
Proof. intros divs parts E H. apply truthfulb_spec in H. congruence. Qed.

(* How the proofs below use a truthful frame: it has one division more than partitions; its divisions are ordered over
   any distance; a row of partition p lies at or above every division up to p, at or below every division after p, and
   strictly below those that are not the last one. *)
Lemma truthful_length : forall divs parts, truthful divs parts -> length divs = length parts + 1.
Proof. intros divs parts H. apply H. Qed.

Lemma truthful_lengths : forall divs parts, truthful divs parts -> parts <> [] ->
  length divs = length parts + 1 /\ 1 <= length parts.
Proof.
  intros divs parts (Hl & _) Hne. split; [exact Hl|].
  destruct parts; [congruence|simpl; lia].
Qed.

Lemma divs_le : forall divs parts a b,
  truthful divs parts -> a <= b -> b <= length parts -> (nth a divs 0 <= nth b divs 0)%Z.
Proof. intros divs parts a b (Hl & Hs & _) Hab Hb. apply sortedZ_le; [exact Hs|exact Hab|lia]. Qed.

Lemma row_ge : forall divs parts a p x,
  truthful divs parts -> a <= p -> p < length parts -> In x (nth p parts []) -> (nth a divs 0 <= x)%Z.
Proof.
  intros divs parts a p x (Hl & Hs & Hr) Ha Hp Hx. destruct (Hr p x Hp Hx) as [Hlo _].
  pose proof (sortedZ_le divs a p Hs Ha). lia.
Qed.

Lemma row_le : forall divs parts p b x,
  truthful divs parts -> p < b -> b <= length parts -> In x (nth p parts []) -> (x <= nth b divs 0)%Z.
Proof.
  intros divs parts p b x (Hl & Hs & Hr) Hb Hn Hx. destruct (Hr p x) as [_ Hhi]; [lia|exact Hx|].
  pose proof (sortedZ_le divs (S p) b Hs Hb). lia.
Qed.

Lemma row_lt : forall divs parts p b x,
  truthful divs parts -> p < b -> b < length parts -> In x (nth p parts []) -> (x < nth b divs 0)%Z.
Proof.
  intros divs parts p b x (Hl & Hs & Hr) Hb Hn Hx. destruct (Hr p x) as [_ Hhi]; [lia|exact Hx|].
  pose proof (sortedZ_le divs (S p) b Hs Hb). lia.
Qed.

Lemma truthful_nil : forall a, truthful [a] [].
Proof. intros a. split; [reflexivity|]. split; [intros i Hi|intros i x Hi]; simpl in Hi; lia. Qed.

Lemma truthful_single : forall a b p,
  (a <= b)%Z -> (forall x, In x p -> (a <= x <= b)%Z) -> truthful [a; b] [p].
Proof.
  intros a b p Hab Hp. split; [reflexivity|]. split.
  - intros [|i] Hi; simpl in *; lia.
  - intros [|i] x Hi Hx; simpl in Hi; [|lia]. specialize (Hp x Hx). unfold row_ok. simpl. lia.
Qed.

(* one more partition in front, its rows strictly below the next division (it need not be the last) *)
Lemma truthful_cons : forall a D p P,
  truthful D P -> (a <= hd 0 D)%Z -> (forall x, In x p -> (a <= x < hd 0 D)%Z) ->
  truthful (a :: D) (p :: P).
Proof.
  intros a D p P (Hl & Hs & Hr) Ha Hp. rewrite hd_nth0 in *. split; [simpl; lia|]. split.
  - intros [|i] Hi; [exact Ha|]. apply (Hs i). simpl in Hi. lia.
  - intros [|i] x Hi Hx.
    + specialize (Hp x Hx). unfold row_ok. simpl. lia.
    + simpl in Hi. destruct (Hr i x) as [Hlo Hhi]; [lia|exact Hx|].
      unfold row_ok. cbn [nth length]. lia.
Qed.

Lemma fewer_divisions_nth : forall divs bs j,
  j < length bs -> nth j (fewer_divisions divs bs) 0%Z = nth (nth j bs 0) divs 0%Z.
Proof. intros divs bs j. apply (nth_map_lt 0 (fun b => nth b divs 0%Z)). Qed.

(* Output partition j only holds rows of input partitions i with c_j <= i < c_{j+1}; the cuts c are non-decreasing,
   the last one is <= n, and every NON-last output stops strictly before the (right-closed) last input partition.
   Then [divs[c] for c in cs] is truthful. *)
Lemma truthful_regroup : forall divs parts cs parts',
  truthful divs parts ->
  length cs = length parts' + 1 ->
  nondec cs ->
  nth (length parts') cs 0 <= length parts ->
  (forall j, S j < length parts' -> nth (S j) cs 0 < length parts) ->
  (forall j x, j < length parts' -> In x (nth j parts' []) ->
       exists i, nth j cs 0 <= i < nth (S j) cs 0 /\ In x (nth i parts [])) ->
  truthful (fewer_divisions divs cs) parts'.
Proof.
  intros divs parts cs parts' Ht Hc Hmono Hlast Hint Hmem.
  assert (Hbound : forall j, j < length cs -> nth j cs 0 <= length parts).
  { intros j Hj. pose proof (nondec_le cs j (length parts') Hmono). lia. }
  split; [unfold fewer_divisions; rewrite map_length; exact Hc|]. split.
  - intros j Hj. unfold fewer_divisions in Hj. rewrite map_length in Hj. rewrite !fewer_divisions_nth by lia.
    specialize (Hbound (S j) Hj). apply (divs_le divs parts); [exact Ht|apply Hmono; lia|lia].
  - intros j x Hj Hx. destruct (Hmem j x Hj Hx) as (i & Hi & Hin). specialize (Hbound (S j)).
    unfold row_ok. rewrite !fewer_divisions_nth by lia.
    split; [apply (row_ge divs parts _ i); auto; lia|].
    destruct (Nat.eq_dec (S j) (length parts')) as [E|NE].
    + right. split; [exact E|]. apply (row_le divs parts i); auto; lia.
    + left. apply (row_lt divs parts i); auto; [lia|]. apply Hint. lia.
Qed.

Lemma In_group_rows : forall parts g x,
  In x (group_rows parts g) <-> exists p, In p g /\ In x (nth p parts []).
Proof. intros. unfold group_rows. rewrite <- flat_map_concat_map. apply in_flat_map. Qed.

(* The selected partition numbers sel, strictly increasing and valid, cut into non-empty groups gs in any way: the
   FIXED FusedIO formula is truthful.  By induction on the groups: the first group's rows lie between its first
   partition number and the first partition number of the next group. *)
Lemma truthful_groups : forall divs parts sel gs,
  truthful divs parts -> sinc sel -> (forall p, In p sel -> p < length parts) ->
  concat gs = sel -> (forall g, In g gs -> g <> []) ->
  truthful (fused_divisions divs gs) (fused_parts parts gs).
Proof.
  intros divs parts sel gs Ht Hs Hval <-. revert Hs Hval.
  induction gs as [|g gs IH]; intros Hs Hval Hgne; [apply truthful_nil|]. cbn [concat] in *.
  destruct (sinc_app _ _ Hs) as (Hg & Hrest & Hsep).
  assert (Hgn : g <> []) by (apply Hgne; left; reflexivity).
  assert (Hgv : forall p, In p g -> hd 0 g <= p <= last g 0 /\ p < length parts).
  { intros p Hp. split; [apply sinc_range; assumption|apply Hval, in_or_app; left; exact Hp]. }
  destruct gs as [|g' r].
  - pose proof (Hgv _ (last_In g 0 Hgn)).
    change (truthful [nth (hd 0 g) divs 0%Z; nth (S (last g 0)) divs 0%Z] [group_rows parts g]).
    apply truthful_single.
    + apply (divs_le divs parts); [exact Ht|lia|lia].
    + intros x Hx. apply In_group_rows in Hx. destruct Hx as (p & Hp & Hx). specialize (Hgv p Hp).
      split; [apply (row_ge divs parts _ p)|apply (row_le divs parts p)]; auto; lia.
  - assert (Hg' : g' <> []) by (apply Hgne; right; left; reflexivity).
    assert (Hh : In (hd 0 g') (concat (g' :: r))) by (apply in_or_app; left; apply hd_In, Hg').
    assert (Hhv : hd 0 g' < length parts) by (apply Hval, in_or_app; right; exact Hh).
    change (truthful (nth (hd 0 g) divs 0%Z :: fused_divisions divs (g' :: r))
                     (group_rows parts g :: fused_parts parts (g' :: r))).
    apply truthful_cons.
    + apply IH; [exact Hrest| |].
      * intros p Hp. apply Hval, in_or_app. right. exact Hp.
      * intros g0 H0. apply Hgne. right. exact H0.
    + specialize (Hsep _ _ (hd_In g Hgn) Hh). apply (divs_le divs parts); [exact Ht|lia|lia].
    + intros x Hx. apply In_group_rows in Hx. destruct Hx as (p & Hp & Hx).
      specialize (Hgv p Hp). specialize (Hsep p _ Hp Hh).
      split; [apply (row_ge divs parts _ p)|apply (row_lt divs parts p)]; auto; lia.
Qed.

Lemma last_singletons : forall (l : list nat), last (last (map (fun p => [p]) l) []) 0 = last l 0.
Proof.
  induction l as [|a l IH]; [reflexivity|]. destruct l as [|b r]; [reflexivity|]. exact IH.
Qed.

Lemma partitions_as_groups_divs : forall divs sel,
  fused_divisions divs (map (fun p => [p]) sel) = partitions_divisions_old divs sel.
Proof.
  intros. unfold fused_divisions, partitions_divisions_old.
  rewrite map_map, last_singletons. reflexivity.
Qed.

Lemma partitions_as_groups_parts : forall parts sel,
  fused_parts parts (map (fun p => [p]) sel) = select_parts parts sel.
Proof.
  intros. unfold fused_parts, select_parts. rewrite map_map. apply map_ext.
  intros p. unfold group_rows. simpl. apply app_nil_r.
Qed.

Theorem partitions_truthful : forall divs parts sel d',
  truthful divs parts ->
  (forall p, In p sel -> p < length parts) ->
  sel <> [] ->
  partitions_divisions divs sel = Some d' ->
  truthful d' (select_parts parts sel).
Proof.
  intros divs parts sel d' Ht Hval Hne Hd.
  unfold partitions_divisions in Hd.
  destruct (strictly_increasingb sel) eqn:Hs; [|discriminate].
  injection Hd as <-. apply strictly_increasingb_spec in Hs.
  rewrite <- partitions_as_groups_divs, <- partitions_as_groups_parts.
  apply (truthful_groups divs parts sel); auto using concat_singletons.
  intros g Hg. apply in_map_iff in Hg. destruct Hg as (p & <- & _). discriminate.
Qed.

(* the fixed function answers "known" exactly on strictly increasing selections *)
Lemma partitions_divisions_known_iff : forall divs sel,
  (exists d', partitions_divisions divs sel = Some d') <-> sinc sel.
Proof.
  intros. rewrite <- strictly_increasingb_spec. unfold partitions_divisions.
  destruct (strictly_increasingb sel); split; intros H; try reflexivity.
  - eexists; reflexivity.
  - destruct H; discriminate.
  - discriminate.
Qed.

(* UNFIXED code: returns the raw formula even for unsorted selections: sel = [2;0] *)
Theorem partitions_unsorted_refuted : exists divs parts sel,
  truthful divs parts /\ (forall p, In p sel -> p < length parts) /\ sel <> [] /\
  ~ truthful (partitions_divisions_old divs sel) (select_parts parts sel).
Proof.
  exists [0; 10; 20; 30]%Z, [[0]; [10]; [20]]%Z, [2; 0].
  split; [apply truthfulb_spec; vm_compute; reflexivity|].
  split; [intros p [<-|[<-|[]]]; simpl; lia|].
  split; [discriminate|].
  apply truthfulb_false. vm_compute. reflexivity.
Qed.

(* non-strict (repeated partition) selections are wrong too although the output is sorted: sel = [0;0] *)
Theorem partitions_repeat_refuted : exists divs parts sel,
  truthful divs parts /\ (forall p, In p sel -> p < length parts) /\ nondec sel /\
  ~ truthful (partitions_divisions_old divs sel) (select_parts parts sel).
Proof.
  exists [0; 10; 20]%Z, [[5]; [15]]%Z, [0; 0].
  split; [apply truthfulb_spec; vm_compute; reflexivity|].
  split; [intros p [<-|[<-|[]]]; simpl; lia|].
  split; [apply nondecreasingb_spec; reflexivity|].
  apply truthfulb_false. vm_compute. reflexivity.
Qed.

(* non-vacuity: strictly increasing, non consecutive selection *)
Example partitions_example :
  partitions_divisions [0; 10; 20; 30]%Z [0; 2] = Some [0; 20; 30]%Z /\
  select_parts [[0; 9]; [10]; [20; 30]]%Z [0; 2] = [[0; 9]; [20; 30]]%Z /\
  truthfulb [0; 10; 20; 30]%Z [[0; 9]; [10]; [20; 30]]%Z = true /\
  truthfulb [0; 20; 30]%Z [[0; 9]; [20; 30]]%Z = true /\
  partitions_divisions [0; 10; 20; 30]%Z [2; 0] = None.
Proof. vm_compute. repeat split; reflexivity. Qed.

Theorem fusion_buckets_concat : forall l step, 1 <= step -> concat (fusion_buckets l step) = l.
Proof. intros. unfold fusion_buckets. apply part_all_concat. assumption. Qed.

Theorem fused_truthful : forall divs parts parts_sel step,
  truthful divs parts ->
  strictly_increasingb parts_sel = true ->
  (forall p, In p parts_sel -> p < length parts) ->
  1 <= step -> parts_sel <> [] ->
  truthful (fused_divisions divs (fusion_buckets parts_sel step))
           (fused_parts parts (fusion_buckets parts_sel step)).
Proof.
  intros divs parts sel step Ht Hs Hval Hstep Hne. apply strictly_increasingb_spec in Hs.
  apply (truthful_groups divs parts sel); auto using fusion_buckets_concat.
  intros g Hg. apply part_all_f_nonempty in Hg; [tauto|exact Hstep].
Qed.

(* One frame for the wrong last entries: the partition NUMBER (UNFIXED formula, D8), wrong even though the vector it
   gives here is sorted (rows above it), and divs[buckets[-1][-1]] without the + 1, which loses the last input
   partition's range. *)
Lemma fused_wrong_last : exists divs parts parts_sel step,
  truthful divs parts /\ strictly_increasingb parts_sel = true /\
  (forall p, In p parts_sel -> p < length parts) /\ 1 <= step /\ parts_sel <> [] /\
  sortedZ (fused_divisions_old divs (fusion_buckets parts_sel step)) /\
  ~ truthful (fused_divisions_old divs (fusion_buckets parts_sel step))
             (fused_parts parts (fusion_buckets parts_sel step)) /\
  ~ truthful (fused_divisions_noplus1 divs (fusion_buckets parts_sel step))
             (fused_parts parts (fusion_buckets parts_sel step)).
Proof.
  exists [0; 1; 2; 30; 40]%Z, [[0]; [1]; [2]; [30; 40]]%Z, [0; 1; 2; 3], 2.
  split; [apply truthfulb_spec; vm_compute; reflexivity|]. split; [reflexivity|].
  split; [intros p [<-|[<-|[<-|[<-|[]]]]]; simpl; lia|]. split; [lia|]. split; [discriminate|].
  split; [apply sortedZb_spec; vm_compute; reflexivity|].
  split; apply truthfulb_false; vm_compute; reflexivity.
Qed.

Theorem fused_divisions_old_refuted_sorted : exists divs parts parts_sel step,
  truthful divs parts /\ strictly_increasingb parts_sel = true /\
  (forall p, In p parts_sel -> p < length parts) /\ 1 <= step /\ parts_sel <> [] /\
  sortedZ (fused_divisions_old divs (fusion_buckets parts_sel step)) /\
  ~ truthful (fused_divisions_old divs (fusion_buckets parts_sel step))
             (fused_parts parts (fusion_buckets parts_sel step)).
Proof.
  destruct fused_wrong_last as (divs & parts & sel & step & H).
  exists divs, parts, sel, step. tauto.
Qed.

Theorem fused_divisions_old_refuted : exists divs parts parts_sel step,
  truthful divs parts /\ strictly_increasingb parts_sel = true /\
  (forall p, In p parts_sel -> p < length parts) /\ 1 <= step /\ parts_sel <> [] /\
  ~ truthful (fused_divisions_old divs (fusion_buckets parts_sel step))
             (fused_parts parts (fusion_buckets parts_sel step)).
Proof.
  destruct fused_wrong_last as (divs & parts & sel & step & H).
  exists divs, parts, sel, step. tauto.
Qed.

Theorem fused_divisions_noplus1_refuted : exists divs parts parts_sel step,
  truthful divs parts /\ strictly_increasingb parts_sel = true /\
  (forall p, In p parts_sel -> p < length parts) /\ 1 <= step /\ parts_sel <> [] /\
  ~ truthful (fused_divisions_noplus1 divs (fusion_buckets parts_sel step))
             (fused_parts parts (fusion_buckets parts_sel step)).
Proof.
  destruct fused_wrong_last as (divs & parts & sel & step & H).
  exists divs, parts, sel, step. tauto.
Qed.

Example fused_example :
  fusion_buckets [0; 1; 3; 4; 5] 2 = [[0; 1]; [3; 4]; [5]] /\
  fused_divisions [0; 10; 20; 30; 40; 50; 60]%Z (fusion_buckets [0; 1; 3; 4; 5] 2) = [0; 30; 50; 60]%Z /\
  fused_parts [[1]; [12]; [25]; [30; 31]; [49]; [50; 60]]%Z (fusion_buckets [0; 1; 3; 4; 5] 2)
    = [[1; 12]; [30; 31; 49]; [50; 60]]%Z /\
  truthfulb [0; 10; 20; 30; 40; 50; 60]%Z [[1]; [12]; [25]; [30; 31]; [49]; [50; 60]]%Z = true /\
  truthfulb [0; 30; 50; 60]%Z [[1; 12]; [30; 31; 49]; [50; 60]]%Z = true /\
  fused_divisions_old [0; 10; 20; 30; 40; 50; 60]%Z (fusion_buckets [0; 1; 3; 4; 5] 2) = [0; 30; 50; 5]%Z.
Proof. vm_compute. repeat split; reflexivity. Qed.

Definition chain (bs : list nat) (n : nat) : Prop :=
  2 <= length bs /\ hd 0 bs = 0 /\ last bs 0 = n /\ nondec bs.

Definition interior_below (bs : list nat) (n : nat) : Prop :=
  forall j, 1 <= j -> S j < length bs -> nth j bs 0 < n.

Lemma chainb_spec : forall bs n, chainb bs n = true <-> chain bs n.
Proof.
  intros. unfold chainb, chain.
  rewrite !andb_true_iff, Nat.leb_le, !Nat.eqb_eq, nondecreasingb_spec. tauto.
Qed.

Lemma interior_belowb_spec : forall bs n, interior_belowb bs n = true <-> interior_below bs n.
Proof.
  intros. unfold interior_belowb, interior_below. rewrite forallb_seq. split.
  - intros H j H1 H2. apply Nat.ltb_lt, H. lia.
  - intros H j Hj. apply Nat.ltb_lt, H; lia.
Qed.

Lemma fewer_parts_length : forall parts bs, length (fewer_parts parts bs) = length bs - 1.
Proof.
  intros parts. induction bs as [|a [|b r] IH]; [reflexivity|reflexivity|].
  change (S (length (fewer_parts parts (b :: r))) = length (a :: b :: r) - 1). rewrite IH. cbn [length]. lia.
Qed.

Lemma fewer_parts_nth : forall parts bs j, S j < length bs ->
  nth j (fewer_parts parts bs) [] = range_rows parts (nth j bs 0) (nth (S j) bs 0).
Proof.
  intros parts. induction bs as [|a [|b r] IH]; intros j Hj; [simpl in Hj; lia|simpl in Hj; lia|].
  destruct j as [|j]; [reflexivity|]. apply (IH j). simpl in *. lia.
Qed.

Lemma In_range_rows : forall parts a b x,
  In x (range_rows parts a b) <-> exists i, a <= i < b /\ In x (nth i parts []).
Proof.
  intros. unfold range_rows. rewrite <- flat_map_concat_map, in_flat_map.
  split; intros (i & Hi & Hx); exists i; split; try exact Hx.
  - apply in_seq in Hi. lia.
  - apply in_seq. lia.
Qed.

(* general form: boundaries need not start at 0 nor end at n *)
Lemma fewer_truthful_gen : forall divs parts bs,
  truthful divs parts ->
  2 <= length bs -> nondec bs -> last bs 0 <= length parts ->
  interior_below bs (length parts) ->
  truthful (fewer_divisions divs bs) (fewer_parts parts bs).
Proof.
  intros divs parts bs Ht Hlen Hnd Hlast Hint.
  apply truthful_regroup with (parts := parts); rewrite ?fewer_parts_length.
  - exact Ht.
  - lia.
  - exact Hnd.
  - rewrite <- last_nth. exact Hlast.
  - intros j Hj. apply Hint; lia.
  - intros j x Hj Hx. rewrite fewer_parts_nth in Hx by lia. apply In_range_rows. exact Hx.
Qed.

(* a chain whose interior boundaries are all < n (equivalently: no trailing empty output partition) *)
Theorem fewer_truthful : forall divs parts bs,
  truthful divs parts ->
  chain bs (length parts) ->
  interior_below bs (length parts) ->
  truthful (fewer_divisions divs bs) (fewer_parts parts bs).
Proof.
  intros divs parts bs Ht (Hlen & _ & Hlast & Hnd) Hint.
  apply fewer_truthful_gen; try assumption. lia.
Qed.

(* "no trailing empty output":  bs_{m-1} < bs_m  is enough for a chain *)
Corollary fewer_truthful_no_trailing_empty : forall divs parts bs,
  truthful divs parts ->
  chain bs (length parts) ->
  nth (length bs - 2) bs 0 < length parts ->
  truthful (fewer_divisions divs bs) (fewer_parts parts bs).
Proof.
  intros divs parts bs Ht Hc Hp. apply fewer_truthful; try assumption.
  destruct Hc as (_ & _ & _ & Hnd). intros j H1 H2.
  pose proof (nondec_le bs j (length bs - 2) Hnd). lia.
Qed.

(* strictly increasing boundaries (what the real code produces when n_out < n_in) *)
Corollary fewer_truthful_strict : forall divs parts bs,
  truthful divs parts ->
  chain bs (length parts) ->
  sinc bs ->
  truthful (fewer_divisions divs bs) (fewer_parts parts bs).
Proof.
  intros divs parts bs Ht Hc Hs. apply fewer_truthful_no_trailing_empty; try assumption.
  destruct Hc as (Hlen & _ & Hlast & _). rewrite <- Hlast, last_nth. apply sinc_lt; [exact Hs|lia|lia].
Qed.

(* the weaker precondition (merely non-decreasing chain) FAILS: trailing empty output *)
Theorem fewer_trailing_empty_refuted : exists divs parts bs,
  truthful divs parts /\ chain bs (length parts) /\
  ~ truthful (fewer_divisions divs bs) (fewer_parts parts bs).
Proof.
  exists [0; 10; 20]%Z, [[5]; [20]]%Z, [0; 2; 2].
  split; [apply truthfulb_spec; vm_compute; reflexivity|].
  split; [apply chainb_spec; reflexivity|].
  apply truthfulb_false. vm_compute. reflexivity.
Qed.

Example fewer_example :
  fewer_divisions [0; 10; 20; 30; 40]%Z [0; 1; 1; 4] = [0; 10; 10; 40]%Z /\
  fewer_parts [[1]; [12]; [25]; [30; 40]]%Z [0; 1; 1; 4] = [[1]; []; [12; 25; 30; 40]]%Z /\
  chainb [0; 1; 1; 4] 4 = true /\ interior_belowb [0; 1; 1; 4] 4 = true /\
  truthfulb [0; 10; 20; 30; 40]%Z [[1]; [12]; [25]; [30; 40]]%Z = true /\
  truthfulb [0; 10; 10; 40]%Z [[1]; []; [12; 25; 30; 40]]%Z = true /\
  (* the refuting instance *)
  fewer_divisions [0; 10; 20]%Z [0; 2; 2] = [0; 20; 20]%Z /\
  fewer_parts [[5]; [20]]%Z [0; 2; 2] = [[5; 20]; []]%Z /\
  interior_belowb [0; 2; 2] 2 = false /\
  truthfulb [0; 20; 20]%Z [[5; 20]; []]%Z = false.
Proof. vm_compute. repeat split; reflexivity. Qed.

Theorem head_truthful : forall divs parts k nrows,
  truthful divs parts -> k <= length parts ->
  truthful (head_divisions divs k) (head_parts parts k nrows).
Proof.
  intros divs parts k nrows Ht Hk. apply truthful_single.
  - apply (divs_le divs parts); [exact Ht|lia|lia].
  - intros x Hx. apply In_firstn_weak, in_concat in Hx. destruct Hx as (l & Hl & Hx).
    apply (In_nth _ _ []) in Hl. destruct Hl as (i & Hi & <-). rewrite firstn_length in Hi.
    rewrite nth_firstn_lt in Hx by lia.
    split; [apply (row_ge divs parts 0 i)|apply (row_le divs parts i k)]; auto; lia.
Qed.

Theorem bhead_truthful : forall divs parts k nrows,
  truthful divs parts -> k <= length parts ->
  truthful (bhead_divisions divs k) (bhead_parts parts k nrows).
Proof.
  intros divs parts k nrows (Hlen & Hs & Hrows) Hk.
  unfold bhead_divisions, bhead_parts.
  assert (Hlp : length (map (firstn nrows) (firstn k parts)) = k)
    by (rewrite map_length, firstn_length; lia).
  split; [rewrite Hlp, firstn_length; lia|]. split.
  - intros i Hi. rewrite firstn_length in Hi.
    rewrite !nth_firstn_lt by lia. apply Hs. lia.
  - intros i x Hi Hx. rewrite Hlp in *.
    rewrite (nth_map_lt []) in Hx by (rewrite firstn_length; lia).
    apply In_firstn_weak in Hx. rewrite nth_firstn_lt in Hx by exact Hi.
    specialize (Hrows i x ltac:(lia) Hx). unfold row_ok in *. rewrite !nth_firstn_lt by lia. lia.
Qed.

Theorem tail_truthful : forall divs parts nrows,
  truthful divs parts -> parts <> [] ->
  truthful (tail_divisions divs) (tail_parts parts nrows).
Proof.
  intros divs parts nrows Ht Hne. destruct (truthful_lengths divs parts Ht Hne) as [Hlen Hn].
  unfold tail_divisions, tail_parts. rewrite Hlen, Nat.add_sub.
  replace (length parts + 1 - 2) with (length parts - 1) by lia.
  apply truthful_single.
  - apply (divs_le divs parts); [exact Ht|lia|lia].
  - intros x Hx. apply In_skipn_weak in Hx. rewrite last_nth in Hx.
    split; [apply (row_ge divs parts _ (length parts - 1))|apply (row_le divs parts (length parts - 1))]; auto; lia.
Qed.

Example head_tail_example :
  let divs := [0; 10; 20; 30]%Z in let parts := [[1; 2]; [10; 15]; [22; 30]]%Z in
  truthfulb divs parts = true /\
  head_divisions divs 2 = [0; 20]%Z /\ head_parts parts 2 3 = [[1; 2; 10]]%Z /\
  truthfulb (head_divisions divs 2) (head_parts parts 2 3) = true /\
  bhead_divisions divs 2 = [0; 10; 20]%Z /\ bhead_parts parts 2 1 = [[1]; [10]]%Z /\
  truthfulb (bhead_divisions divs 2) (bhead_parts parts 2 1) = true /\
  tail_divisions divs = [20; 30]%Z /\ tail_parts parts 1 = [[30]]%Z /\
  truthfulb (tail_divisions divs) (tail_parts parts 1) = true.
Proof. vm_compute. repeat split; reflexivity. Qed.

Lemma concat2_core : forall A pa B pb,
  truthful A pa -> truthful B pb -> (last A 0 < hd 0 B)%Z ->
  truthful (removelast A ++ B) (pa ++ pb).
Proof.
  intros A pa B pb (HlA & HsA & HrA) (HlB & HsB & HrB) Hsep.
  rewrite last_nth, hd_nth0, HlA, Nat.add_sub in Hsep.
  (* the joined vector is A below position |pa| and B, shifted, from there on: at the junction A's last entry has given
     way to B's first, which is larger (Hsep) *)
  assert (Hrl : length (removelast A) = length pa) by (rewrite removelast_firstn_len, firstn_length; lia).
  assert (Rlo : forall i, i < length pa -> nth i (removelast A ++ B) 0%Z = nth i A 0%Z).
  { intros i Hi. rewrite app_nth1, removelast_firstn_len by lia. apply nth_firstn_lt. lia. }
  assert (Rhi : forall i, length pa <= i -> nth i (removelast A ++ B) 0%Z = nth (i - length pa) B 0%Z).
  { intros i Hi. rewrite app_nth2, Hrl by lia. reflexivity. }
  split; [rewrite !app_length, Hrl; lia|]. split.
  - intros i Hi. rewrite app_length, Hrl in Hi. destruct (lt_eq_lt_dec (S i) (length pa)) as [[H|H]|H].
    + rewrite !Rlo by lia. apply HsA. lia.
    + rewrite Rlo, Rhi, H, Nat.sub_diag by lia. specialize (HsA i). rewrite H in HsA. lia.
    + rewrite !Rhi, Nat.sub_succ_l by lia. apply HsB. lia.
  - intros i x Hi Hx. rewrite app_length in *. unfold row_ok in *. destruct (Nat.lt_ge_cases i (length pa)) as [H|H].
    + rewrite app_nth1 in Hx by exact H. specialize (HrA i x H Hx). rewrite Rlo by exact H.
      destruct (Nat.eq_dec (S i) (length pa)) as [E|E].
      * rewrite Rhi, E, Nat.sub_diag by lia. rewrite E in HrA. lia.
      * rewrite Rlo by lia. lia.
    + rewrite app_nth2 in Hx by exact H. specialize (HrB (i - length pa) x ltac:(lia) Hx).
      rewrite !Rhi, Nat.sub_succ_l by lia. lia.
Qed.

Theorem concat_truthful : forall A pa B pb R,
  truthful A pa -> truthful B pb ->
  concat_divisions2 A B = Some R ->
  truthful R (pa ++ pb).
Proof.
  intros A pa B pb R HA HB H. unfold concat_divisions2 in H.
  destruct (last A 0 <? hd 0 B)%Z eqn:E; [|discriminate].
  injection H as <-. apply Z.ltb_lt in E. apply concat2_core; assumption.
Qed.

(* touching frames  A[-1] = B[0]  must NOT be joined this way *)
Theorem concat_touching_refuted : exists A pa B pb R,
  truthful A pa /\ truthful B pb /\ last A 0%Z = hd 0%Z B /\
  concat_divisions2_touching A B = Some R /\ ~ truthful R (pa ++ pb).
Proof.
  exists [0; 10]%Z, [[3; 10]]%Z, [10; 20]%Z, [[10; 15]]%Z, [0; 10; 20]%Z.
  split; [apply truthfulb_spec; vm_compute; reflexivity|].
  split; [apply truthfulb_spec; vm_compute; reflexivity|].
  split; [reflexivity|]. split; [reflexivity|].
  apply truthfulb_false. vm_compute. reflexivity.
Qed.

(* n frames.  The joined vector starts at or above the first frame's first division (a frame without partitions
   contributes no entry of its own): the separation test at the junction before it compares with that division. *)
Lemma join_truthful : forall ds pss,
  Forall2 truthful ds pss -> ds <> [] -> separatedb ds = true ->
  truthful (join_divisions ds) (concat pss) /\ (hd 0 (hd [] ds) <= hd 0 (join_divisions ds))%Z.
Proof.
  intros ds pss HF. induction HF as [|A pa ds pss HA HF IH]; intros Hne Hsep; [congruence|].
  destruct ds as [|B r].
  - inversion HF. cbn [concat join_divisions hd]. rewrite app_nil_r. split; [exact HA|lia].
  - change (separatedb (A :: B :: r)) with ((last A 0 <? hd 0 B)%Z && separatedb (B :: r)) in Hsep.
    apply andb_true_iff in Hsep. destruct Hsep as [H1 H2]. apply Z.ltb_lt in H1.
    destruct IH as [IH Hge]; [discriminate|exact H2|]. cbn [hd] in Hge |- *.
    change (join_divisions (A :: B :: r)) with (removelast A ++ join_divisions (B :: r)).
    split; [apply concat2_core; [exact HA|exact IH|lia]|].
    destruct A as [|a0 [|a1 A]]; cbn [removelast app hd last] in *; [|lia|lia].
    apply truthful_length in HA. cbn in HA. lia.
Qed.

Theorem concat_truthful_n : forall ds pss R,
  Forall2 truthful ds pss ->
  concat_divisions ds = Some R ->
  truthful R (concat_parts pss).
Proof.
  intros ds pss R HF H. unfold concat_divisions in H. destruct ds as [|A ds]; [discriminate|].
  destruct (separatedb (A :: ds)) eqn:Hsep; [|discriminate]. injection H as <-.
  destruct (join_truthful (A :: ds) pss HF) as [Ht _]; [discriminate|exact Hsep|exact Ht].
Qed.

Example concat_example :
  concat_divisions2 [0; 10; 20]%Z [21; 30]%Z = Some [0; 10; 21; 30]%Z /\
  truthfulb [0; 10; 20]%Z [[0; 5]; [10; 20]]%Z = true /\
  truthfulb [21; 30]%Z [[21; 30]]%Z = true /\
  truthfulb [0; 10; 21; 30]%Z ([[0; 5]; [10; 20]] ++ [[21; 30]])%Z = true /\
  concat_divisions2 [0; 10; 20]%Z [20; 30]%Z = None /\
  concat_divisions2_touching [0; 10; 20]%Z [20; 30]%Z = Some [0; 10; 20; 30]%Z /\
  truthfulb [0; 10; 20; 30]%Z ([[0; 5]; [10; 20]] ++ [[20; 30]])%Z = false /\
  concat_divisions [[0; 10; 20]; [21; 30]; [31; 40; 50]]%Z = Some [0; 10; 21; 31; 40; 50]%Z /\
  truthfulb [0; 10; 21; 31; 40; 50]%Z
     (concat_parts [[[0; 5]; [10; 20]]; [[21; 30]]; [[31]; [40; 50]]])%Z = true /\
  concat_divisions [[0; 10; 20]; [20; 30]]%Z = None.
Proof. vm_compute. repeat split; reflexivity. Qed.

(* canonical data for n partitions: divisions 0..n, one row (index value n) in the last partition *)
Definition wit_divs (n : nat) : list Z := map Z.of_nat (seq 0 (n + 1)).
Definition wit_parts (n : nat) : list (list Z) :=
  map (fun i => if S i =? n then [Z.of_nat n] else []) (seq 0 n).

Lemma wit_divs_nth : forall n i, i <= n -> nth i (wit_divs n) 0%Z = Z.of_nat i.
Proof. intros n i Hi. unfold wit_divs. apply nth_map_seq. lia. Qed.

Lemma wit_parts_nth : forall n i, i < n ->
  nth i (wit_parts n) [] = if S i =? n then [Z.of_nat n] else [].
Proof. intros n i Hi. unfold wit_parts. apply (nth_map_seq (fun i => if S i =? n then [Z.of_nat n] else [])), Hi. Qed.

Lemma wit_parts_length : forall n, length (wit_parts n) = n.
Proof. intros. unfold wit_parts. rewrite map_length, seq_length. reflexivity. Qed.

Lemma wit_truthful : forall n, truthful (wit_divs n) (wit_parts n).
Proof.
  intros n. split; [|split].
  - rewrite wit_parts_length. unfold wit_divs. rewrite map_length, seq_length. reflexivity.
  - intros i Hi. unfold wit_divs in Hi. rewrite map_length, seq_length in Hi.
    rewrite !wit_divs_nth by lia. lia.
  - intros i x Hi Hx. rewrite wit_parts_length in *. rewrite wit_parts_nth in Hx by exact Hi.
    destruct (Nat.eqb_spec (S i) n) as [E|E]; [|inversion Hx].
    destruct Hx as [<-|[]]. unfold row_ok. rewrite !wit_divs_nth by lia. lia.
Qed.

Lemma first_reach : forall (l : list nat) n j,
  nth 0 l 0 < n -> n <= nth j l 0 ->
  exists j0, j0 < j /\ nth j0 l 0 < n /\ n <= nth (S j0) l 0.
Proof.
  intros l n. induction j as [|j IH]; intros H0 Hj; [lia|].
  destruct (le_lt_dec n (nth j l 0)) as [H|H].
  - destruct (IH H0 H) as (j0 & A & B & C). exists j0. repeat split; try assumption. lia.
  - exists j. repeat split; try assumption. lia.
Qed.

(* If some interior boundary of a chain reaches n (a trailing empty output partition),
   the canonical truthful frame is mapped to a NON-truthful one.  Together with
   fewer_truthful:  for chains with n >= 1,  interior_below  is necessary and sufficient. *)
Theorem fewer_interior_necessary : forall bs n j,
  chain bs n -> 1 <= n ->
  1 <= j -> S j < length bs -> n <= nth j bs 0 ->
  ~ truthful (fewer_divisions (wit_divs n) bs) (fewer_parts (wit_parts n) bs).
Proof.
  intros bs n j (Hlen & Hhd & Hlast & Hnd) Hn Hj1 Hj2 Hreach Ht.
  rewrite hd_nth0 in Hhd. rewrite last_nth in Hlast.
  destruct (first_reach bs n j) as (j0 & Hj0 & Hlo & Hhi); [lia|exact Hreach|].
  pose proof (nondec_le bs (S j0) (length bs - 1) Hnd) as Hle.
  (* output j0 is not the last one, holds the row n of input partition n - 1, and the division after it is n *)
  assert (Hin : In (Z.of_nat n) (nth j0 (fewer_parts (wit_parts n) bs) [])).
  { rewrite fewer_parts_nth by lia. apply In_range_rows. exists (n - 1). split; [lia|].
    rewrite wit_parts_nth by lia. replace (S (n - 1)) with n by lia. rewrite Nat.eqb_refl. left. reflexivity. }
  apply (row_lt _ _ j0 (S j0) _ Ht) in Hin; rewrite ?fewer_parts_length; try lia.
  rewrite fewer_divisions_nth, wit_divs_nth in Hin by lia. lia.
Qed.

Example fewer_interior_necessary_example :
  truthfulb (fewer_divisions (wit_divs 3) [0; 1; 3; 3]) (fewer_parts (wit_parts 3) [0; 1; 3; 3]) = false /\
  truthfulb (fewer_divisions (wit_divs 3) [0; 1; 1; 3]) (fewer_parts (wit_parts 3) [0; 1; 1; 3]) = true.
Proof. vm_compute. split; reflexivity. Qed.

Print Assumptions truthfulb_spec.
Print Assumptions truthful_regroup.
Print Assumptions truthful_groups.
Print Assumptions partitions_truthful.
Print Assumptions partitions_divisions_known_iff.
Print Assumptions partitions_unsorted_refuted.
Print Assumptions partitions_repeat_refuted.
Print Assumptions partitions_example.
Print Assumptions fusion_buckets_concat.
Print Assumptions fused_truthful.
Print Assumptions fused_divisions_old_refuted.
Print Assumptions fused_divisions_old_refuted_sorted.
Print Assumptions fused_divisions_noplus1_refuted.
Print Assumptions fused_example.
Print Assumptions fewer_truthful_gen.
Print Assumptions fewer_truthful.
Print Assumptions fewer_truthful_no_trailing_empty.
Print Assumptions fewer_truthful_strict.
Print Assumptions fewer_trailing_empty_refuted.
Print Assumptions fewer_interior_necessary.
Print Assumptions fewer_example.
Print Assumptions head_truthful.
Print Assumptions bhead_truthful.
Print Assumptions tail_truthful.
Print Assumptions head_tail_example.
Print Assumptions concat_truthful.
Print Assumptions concat_touching_refuted.
Print Assumptions concat_truthful_n.
Print Assumptions concat_example.
Print Assumptions chainb_spec.
Print Assumptions interior_belowb_spec.
Print Assumptions strictly_increasingb_spec.
Print Assumptions nondecreasingb_spec.


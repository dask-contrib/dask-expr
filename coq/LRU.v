(* LRU.v -- model of dask_expr/_util.py: class LRU (UserDict over an OrderedDict) op for op, and of
   the cached-call pattern used by _get_divisions, _get_mem_usages, _divisions_and_locations:
       if key in lru: return lru[key];  result = compute(..); lru[key] = result; return result
   Theorems: capacity / no duplicate keys / transparency (every call returns f key whatever the
   history, capacity and eviction) / failure atomicity. *)
From DX Require Import Base.

Section LRU.
  Variable V : Type.
  (* oldest first, like the OrderedDict iteration order *)
  Record lru := { items : list (nat * V); maxsize : nat }.

  Fixpoint find (k : nat) (l : list (nat * V)) : option V :=
    match l with [] => None | (k', v) :: r => if k =? k' then Some v else find k r end.
  Fixpoint remove (k : nat) (l : list (nat * V)) : list (nat * V) :=
    match l with [] => [] | (k', v) :: r => if k =? k' then remove k r else (k', v) :: remove k r end.
  Fixpoint update (k : nat) (v : V) (l : list (nat * V)) : list (nat * V) :=
    match l with [] => [] | (k', v') :: r => if k =? k' then (k', v) :: r else (k', v') :: update k v r end.

  Definition contains (s : lru) (k : nat) : bool := match find k (items s) with Some _ => true | None => false end.
  (* __getitem__: value + move_to_end; None = KeyError (state unchanged) *)
  Definition getitem (s : lru) (k : nat) : option V * lru :=
    match find k (items s) with
    | Some v => (Some v, {| items := remove k (items s) ++ [(k, v)]; maxsize := maxsize s |})
    | None => (None, s)
    end.
  (* __setitem__: if len >= maxsize: popitem(last=False) -- even when the key is already present;
     then dict assignment (in place for an existing key, appended otherwise).
     popitem on an empty dict raises KeyError: modelled as None (only reachable with maxsize = 0). *)
  Definition setitem (s : lru) (k : nat) (v : V) : option lru :=
    if maxsize s <=? length (items s) then
      match items s with
      | [] => None
      | _ :: r => Some {| items := match find k r with Some _ => update k v r | None => r ++ [(k, v)] end;
                          maxsize := maxsize s |}
      end
    else Some {| items := match find k (items s) with Some _ => update k v (items s) | None => items s ++ [(k, v)] end;
                 maxsize := maxsize s |}.

  Variable f : nat -> option V.      (* the computation; None = it raises *)
  Definition cached_call (s : lru) (k : nat) : option V * lru :=
    if contains s k then getitem s k
    else match f k with
         | None => (None, s)                               (* exception propagates before any write *)
         | Some v => match setitem s k v with
                     | Some s' => (Some v, s')
                     | None => (None, s)
                     end
         end.

  Definition keys (l : list (nat * V)) : list nat := map fst l.
  Definition Inv (s : lru) : Prop :=
    1 <= maxsize s /\ length (items s) <= maxsize s /\ NoDup (keys (items s)) /\
    forall k v, find k (items s) = Some v -> f k = Some v.

  (* what the two writes do to the list: the entry of k goes to the end (getitem), or k is bound to v in place
     or at the end (setitem after a possible eviction).  Both are [put] on a list. *)
  Fixpoint put (k : nat) (v : V) (l : list (nat * V)) : list (nat * V) :=
    match l with [] => [(k, v)] | (k', v') :: r => if k =? k' then (k', v) :: r else (k', v') :: put k v r end.

  Lemma put_eq : forall k v l, match find k l with Some _ => update k v l | None => l ++ [(k, v)] end = put k v l.
  Proof.
    induction l as [|[k' v'] r IH]; simpl; [reflexivity|].
    destruct (k =? k'); [reflexivity|]. rewrite <- IH. destruct (find k r); reflexivity.
  Qed.

  Lemma put_fresh : forall k v l, find k l = None -> put k v l = l ++ [(k, v)].
  Proof. intros k v l E. rewrite <- put_eq, E. reflexivity. Qed.

  Lemma find_put : forall k v l k0, find k0 (put k v l) = if k0 =? k then Some v else find k0 l.
  Proof.
    induction l as [|[k' v'] r IH]; intros k0; simpl; [destruct (k0 =? k); reflexivity|].
    destruct (Nat.eqb_spec k k'); simpl; rewrite ?IH; destruct (Nat.eqb_spec k0 k'), (Nat.eqb_spec k0 k); congruence.
  Qed.

  Lemma find_remove : forall k l k0, find k0 (remove k l) = if k0 =? k then None else find k0 l.
  Proof.
    induction l as [|[k' v'] r IH]; intros k0; simpl; [destruct (k0 =? k); reflexivity|].
    destruct (Nat.eqb_spec k k'); simpl; rewrite IH; destruct (Nat.eqb_spec k0 k'), (Nat.eqb_spec k0 k); congruence.
  Qed.

  Lemma find_keys : forall k l, In k (keys l) <-> find k l <> None.
  Proof.
    induction l as [|[k' v'] r IH]; simpl; [tauto|].
    destruct (Nat.eqb_spec k k'); [split; [discriminate|auto]|]. rewrite IH. intuition congruence.
  Qed.

  Lemma remove_length : forall k l,
    length (remove k l) + match find k l with Some _ => 1 | None => 0 end <= length l.
  Proof. induction l as [|[k' v'] r IH]; simpl; [lia|]. destruct (k =? k'); simpl; lia. Qed.

  Lemma put_length : forall k v l, length (put k v l) <= S (length l).
  Proof. induction l as [|[k' v'] r IH]; simpl; [lia|]. destruct (k =? k'); simpl; lia. Qed.

  (* the part of the invariant that speaks of the entries: one per key, each the value of f *)
  Definition sound (l : list (nat * V)) : Prop :=
    NoDup (keys l) /\ forall k v, find k l = Some v -> f k = Some v.

  Lemma sound_tail : forall x l, sound (x :: l) -> sound l.
  Proof.
    intros [k1 v1] l [Hnd Hf]. inversion Hnd as [|? ? Hni Hnd']; subst. split; [exact Hnd'|].
    intros k v H. apply Hf. simpl. destruct (Nat.eqb_spec k k1); [|exact H].
    subst. exfalso. apply Hni, find_keys. congruence.
  Qed.

  Lemma sound_remove : forall k l, sound l -> sound (remove k l).
  Proof.
    intros k l [Hnd Hf]. split.
    - clear Hf. induction l as [|[k' v'] r IH]; simpl; [constructor|]. inversion Hnd; subst.
      destruct (k =? k'); [auto|]. simpl. constructor; [|auto].
      rewrite find_keys, find_remove in *. destruct (k' =? k); tauto.
    - intros k0 v0. rewrite find_remove. destruct (k0 =? k); [discriminate|apply Hf].
  Qed.

  Lemma sound_put : forall k v l, f k = Some v -> sound l -> sound (put k v l).
  Proof.
    intros k v l Hfk [Hnd Hf]. split.
    - clear Hf. induction l as [|[k' v'] r IH]; simpl; [repeat constructor; intros []|]. inversion Hnd; subst.
      destruct (Nat.eqb_spec k k'); [exact Hnd|]. simpl. constructor; [|auto].
      rewrite find_keys, find_put in *. destruct (Nat.eqb_spec k' k); [congruence|assumption].
    - intros k0 v0. rewrite find_put. destruct (Nat.eqb_spec k0 k); [congruence|apply Hf].
  Qed.

  Lemma Inv_put : forall m k v l, length l < m -> sound l -> f k = Some v ->
    Inv {| items := put k v l; maxsize := m |}.
  Proof.
    intros m k v l Hl Hs Hfk. destruct (sound_put k v l Hfk Hs) as [Hnd Hf].
    pose proof (put_length k v l). unfold Inv; simpl. repeat split; try assumption; lia.
  Qed.

  Theorem cached_call_inv : forall s k r s', Inv s -> cached_call s k = (r, s') -> Inv s' /\ r = f k /\ (f k = None -> s' = s).
  Proof.
    intros [l m] k r s' [Hm [Hl Hs]] H. unfold cached_call, contains, getitem, setitem in H. simpl in *.
    destruct (find k l) as [v|] eqn:E.
    - (* hit: the entry moves to the end *)
      inversion H; subst; clear H. pose proof (proj2 Hs k v E) as Hfk.
      split; [|split; congruence].
      rewrite <- put_fresh by (rewrite find_remove, Nat.eqb_refl; reflexivity).
      apply Inv_put; [|apply sound_remove, Hs|exact Hfk].
      pose proof (remove_length k l) as Hr. rewrite E in Hr. lia.
    - (* miss *)
      destruct (f k) as [v|] eqn:Efk; [|inversion H; subst; unfold Inv; auto].
      destruct (Nat.leb_spec m (length l)) as [Hfull|Hroom].
      + (* full: the oldest entry goes *)
        destruct l as [|x l]; [simpl in *; lia|]. rewrite put_eq in H. inversion H; subst; clear H.
        split; [|split; congruence]. apply Inv_put; [simpl in Hl; lia|apply (sound_tail x), Hs|exact Efk].
      + inversion H; subst; clear H. split; [|split; congruence].
        rewrite <- (put_fresh k v l E).
        apply Inv_put; assumption.
  Qed.

  (* a whole session: any sequence of cached calls, any capacity >= 1 *)
  Fixpoint session (s : lru) (ks : list nat) : list (option V) * lru :=
    match ks with
    | [] => ([], s)
    | k :: r => let '(v, s1) := cached_call s k in let '(vs, s2) := session s1 r in (v :: vs, s2)
    end.

  Theorem lru_transparent : forall ks s, Inv s -> fst (session s ks) = map f ks /\ Inv (snd (session s ks)).
  Proof.
    induction ks as [|k r IH]; intros s Hs; simpl; [split; [reflexivity|assumption]|].
    destruct (cached_call s k) as [v s1] eqn:E. destruct (cached_call_inv s k v s1 Hs E) as [H1 [H2 _]].
    destruct (session s1 r) as [vs s2] eqn:E2. specialize (IH s1 H1). rewrite E2 in IH. simpl in *.
    destruct IH as [IHa IHb]. split; [congruence|assumption].
  Qed.

  Theorem fail_atomic : forall s k, Inv s -> f k = None -> cached_call s k = (None, s).
  Proof.
    intros s k Hs Hf. destruct (cached_call s k) as [r s'] eqn:E.
    destruct (cached_call_inv s k r s' Hs E) as [_ [H2 H3]]. rewrite H2, Hf, (H3 Hf). reflexivity.
  Qed.

  Lemma inv_empty : forall m, 1 <= m -> Inv {| items := []; maxsize := m |}.
  Proof. intros m Hm. unfold Inv; simpl. repeat split; try lia; [constructor|intros; discriminate]. Qed.
End LRU.

(* non-vacuity: a history longer than the capacity, with evictions, overwrites and a failing compute *)
Definition ex_f (k : nat) : option nat := if k =? 7 then None else Some (k * 10).
Example lru_session_example :
  fst (session nat ex_f {| items := []; maxsize := 2 |} [1; 2; 1; 3; 7; 2; 1; 3]) = map ex_f [1; 2; 1; 3; 7; 2; 1; 3]
  /\ keys nat (items nat (snd (session nat ex_f {| items := []; maxsize := 2 |} [1; 2; 1; 3; 7; 2; 1; 3]))) = [1; 3].
Proof. vm_compute. split; reflexivity. Qed.

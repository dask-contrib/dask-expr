(* PropC11.v -- property C11: selecting partitions / head / tail commutes with the computation (partial).
   Stated here: the output subset of the staged and the simple shuffle holds exactly the rows routed to the requested
   partitions; the divisions reported for partition selections / head / tail are truthful (model and translated source);
   output partition i of a label slice reads input partition start + i; the source's rule for merging nested heads / tails;
   the lowering of head / tail, their push-down and that of partition selections through element-wise operations (not
   through row filters), selections compose; head of a sorted collection as the n smallest rows.
   The per-source _filtered_task contracts and the other push-through rules are covered by the differential sweep. *)
From Coq Require Import Permutation.
From DX Require Import Base Shuffle ShuffleProofs Divisions DivisionsProofs.

Theorem C11_shuffle_output_subset : forall (payload : Type) (n_in n_out k stages : nat) (sel : list nat) (filtered : bool) (Ps : list (list (row payload))),
  length Ps = n_in -> 1 <= n_in -> n_in <= n_out -> 2 <= k -> n_in <= k ^ stages -> 1 <= stages ->
  (forall p, In p sel -> p < n_out) ->
  (forall P r, In P Ps -> In r P -> target r < n_out) ->
  exists outs, exec_shuffle (task_layer n_in n_out k stages sel filtered) Ps = Some outs /\
               length outs = length sel /\
               forall i, i < length sel -> Permutation (nth i outs []) (routed Ps (nth i sel 0)).
Proof. exact staged_route. Qed.
Print Assumptions C11_shuffle_output_subset.

Theorem C11_simple_shuffle_output_subset : forall (payload : Type) (n_in n_out : nat) (sel : list nat) (filtered : bool) (Ps : list (list (row payload))),
  length Ps = n_in -> (forall p, In p sel -> p < n_out) -> (forall P r, In P Ps -> In r P -> target r < n_out) ->
  exec_shuffle (simple_layer n_in n_out sel filtered) Ps = Some (map (routed Ps) sel).
Proof. exact simple_route. Qed.
Print Assumptions C11_simple_shuffle_output_subset.

Theorem C11_partitions_divisions_truthful : forall divs parts sel d',
  truthful divs parts -> (forall p, In p sel -> p < length parts) -> sel <> [] ->
  partitions_divisions divs sel = Some d' -> truthful d' (select_parts parts sel).
Proof. exact partitions_truthful. Qed.
Print Assumptions C11_partitions_divisions_truthful.

(* T-SRC: the same statements about the method bodies translated from the current source (GeneratedSource.v) *)
From DX Require Import PySeq GeneratedSource SourceChecks.
Local Open Scope nat_scope.
Theorem C11_src_partitions_truthful : forall divs parts (sel : list nat) d',
  truthful divs parts -> (forall p, In p sel -> p < length parts) -> sel <> [] ->
  src_Partitions_divisions divs (zs sel) = Known d' -> truthful d' (select_parts parts sel).
Proof. exact src_partitions_truthful. Qed.
Print Assumptions C11_src_partitions_truthful.

Theorem C11_src_pushed_selection_is_selection : forall full (sel : list nat),
  src_PartitionsFiltered_divisions full true (zs sel) = src_Partitions_divisions full (zs sel).
Proof. intros. rewrite src_PartitionsFiltered_ok, src_Partitions_ok. reflexivity. Qed.
Print Assumptions C11_src_pushed_selection_is_selection.

Theorem C11_src_head_truthful : forall divs parts k nrows,
  truthful divs parts -> k <= length parts ->
  truthful (src_Head_divisions divs (Z.of_nat k)) (head_parts parts k nrows).
Proof. exact src_head_truthful. Qed.
Print Assumptions C11_src_head_truthful.

Theorem C11_src_tail_truthful : forall divs parts nrows,
  truthful divs parts -> parts <> [] -> truthful (src_Tail_divisions divs) (tail_parts parts nrows).
Proof. exact src_tail_truthful. Qed.
Print Assumptions C11_src_tail_truthful.

(* label slices: output partition i of df.loc[lo:hi] is computed from input partition start + i (defect D42: partitions[i] of a
   slice was pushed through as if it were input partition i) *)
From DX Require Import Loc LocProofs.
Theorem C11_loc_partition_source : forall divs parts lo hi i x,
  i <= ls_stop divs lo hi - ls_start divs lo ->
  In x (nth i (loc_parts divs parts lo hi) []) -> In x (nth (ls_start divs lo + i) parts []).
Proof. exact loc_partition_source. Qed.
Print Assumptions C11_loc_partition_source.

Theorem C11_loc_unshifted_refuted : exists divs parts lo hi,
  truthful divs parts /\ slice_ok lo hi /\ loc_parts_unshifted divs parts lo hi <> loc_parts divs parts lo hi.
Proof. exact loc_unshifted_refuted. Qed.
Print Assumptions C11_loc_unshifted_refuted.

(* nested heads / tails: the merge rule of the current source (_nested_selection, translated into GeneratedSource.v) is sound, and
   only the row counts may be merged with min -- the outer head's npartitions is irrelevant (seed C11_b) *)
From DX Require Import NestedHead SourceChecksHead.
Theorem C11_src_nested_head_sound : forall (A : Type) (parts : list (list A)) k (n1 n2 : nat) n,
  src_nested_selection (Z.of_nat n2) (Z.of_nat n1) = Some n ->
  firstn n2 (head_rows parts k n1) = head_rows parts k (Z.to_nat n).
Proof. exact src_nested_head_sound. Qed.
Print Assumptions C11_src_nested_head_sound.

Theorem C11_src_nested_head_neg_sound : forall (A : Type) (l : list A) (m1 m2 : nat) n, 1 <= m1 -> 1 <= m2 ->
  src_nested_selection (- Z.of_nat m2) (- Z.of_nat m1) = Some n ->
  head_neg (head_neg l m1) m2 = head_neg l (Z.to_nat (- n)).
Proof. exact src_nested_head_neg_sound. Qed.
Print Assumptions C11_src_nested_head_neg_sound.

Theorem C11_src_nested_tail_sound : forall (A : Type) (l : list A) (n1 n2 : nat) n,
  src_nested_selection (Z.of_nat n2) (Z.of_nat n1) = Some n ->
  tail_rows (tail_rows l n1) n2 = tail_rows l (Z.to_nat n).
Proof. exact src_nested_tail_sound. Qed.
Print Assumptions C11_src_nested_tail_sound.

Theorem C11_src_nested_mixed_not_merged : forall (n : nat) (m : nat), 1 <= m ->
  src_nested_selection (- Z.of_nat m) (Z.of_nat n) = None /\ src_nested_selection (Z.of_nat n) (- Z.of_nat m) = None.
Proof. exact src_nested_selection_mixed. Qed.
Print Assumptions C11_src_nested_mixed_not_merged.

Theorem C11_nested_head_min_npartitions_refuted : exists (parts : list (list nat)) k1 k2 n1 n2,
  firstn n2 (head_rows parts k1 n1) <> head_rows parts (Nat.min k2 k1) (Nat.min n2 n1).
Proof. exact nested_head_min_npartitions_refuted. Qed.
Print Assumptions C11_nested_head_min_npartitions_refuted.

(* positional selection (Select.v): the lowering of head(n, npartitions=k) -- head of each of the first k partitions, concatenate,
   head again -- returns exactly the first n rows of the first k partitions, for every n, k >= 1 and every partitioning (short and
   empty partitions included); without the second head it does not (k >= 2); tail(n) is the tail of the last partition;
   both commute with element-wise operations on co-partitioned operands (Head/Tail._simplify_down) but not with row filters;
   partition selections commute with element-wise operations and compose.  Tie: T-LAYER select_layer (shape of the real lowered
   expression and computed rows vs the extracted head_lowered / tail_lowered). *)
From DX Require Import Select SelectProofs.
Theorem C11_head_lowering_correct : forall A (n k : nat) (parts : list (list A)),
  1 <= k -> head_lowered n k parts = head_spec n k parts.
Proof. exact head_lowered_correct. Qed.
Print Assumptions C11_head_lowering_correct.

Theorem C11_head_without_second_head_refuted : exists (n k : nat) (parts : list (list nat)),
  2 <= k /\ head_lowered_no_second n k parts <> head_spec n k parts.
Proof. exact head_no_second_refuted. Qed.
Print Assumptions C11_head_without_second_head_refuted.

Theorem C11_tail_lowering_correct : forall A n (parts : list (list A)),
  parts <> [] -> tail_lowered n parts = tail_spec n parts.
Proof. exact tail_lowered_correct. Qed.
Print Assumptions C11_tail_lowering_correct.

Theorem C11_head_through_elemwise : forall A B C (f : A -> B -> C) n k (P1 : list (list A)) (P2 : list (list B)),
  same_shape P1 P2 ->
  head_spec n k (elemwise2 f P1 P2) = zipw f (head_spec n k P1) (head_spec n k P2).
Proof. exact head_spec_elemwise2. Qed.
Print Assumptions C11_head_through_elemwise.

Theorem C11_tail_through_elemwise : forall A B C (f : A -> B -> C) n (P1 : list (list A)) (P2 : list (list B)),
  same_shape P1 P2 ->
  tail_spec n (elemwise2 f P1 P2) = zipw f (tail_spec n P1) (tail_spec n P2).
Proof. exact tail_spec_elemwise2. Qed.
Print Assumptions C11_tail_through_elemwise.

Theorem C11_head_not_through_filter : exists (p : nat -> bool) n (l : list nat),
  head_rows n (filter p l) <> filter p (head_rows n l).
Proof. exact head_filter_refuted. Qed.
Print Assumptions C11_head_not_through_filter.

Theorem C11_select_through_elemwise : forall A B C (f : A -> B -> C) sel (P1 : list (list A)) (P2 : list (list B)),
  same_shape P1 P2 -> Forall (fun i => i < length P1) sel ->
  select sel (elemwise2 f P1 P2) = elemwise2 f (select sel P1) (select sel P2).
Proof. exact select_elemwise2. Qed.
Print Assumptions C11_select_through_elemwise.

Theorem C11_select_of_select : forall A (s1 s2 : list nat) (parts : list (list A)),
  Forall (fun i => i < length s1) s2 ->
  select s2 (select s1 parts) = select (map (fun i => nth i s1 0) s2) parts.
Proof. exact select_select. Qed.
Print Assumptions C11_select_of_select.

Theorem C11_head_is_selection_of_first_partitions : forall A n k (parts : list (list A)),
  head_spec n k parts = head_rows n (concat (select (seq 0 (Nat.min k (length parts))) parts)).
Proof. exact head_is_select. Qed.
Print Assumptions C11_head_is_selection_of_first_partitions.

(* head over a sorted collection (Head(SortValues) -> NFirst): the n smallest rows, computed as a tree reduction, are the first n
   rows of the first sorted partition whenever that partition holds at least n rows; when it is shorter the rewritten plan returns
   MORE rows (the globally smallest n) than the first partition holds -- the upstream-intended deviation, refuted as an equality *)
Theorem C11_sorted_head_is_nfirst : forall A (key : A -> Z) n (parts sp : list (list A)),
  sorted_partitioning key parts sp -> n <= length (hd [] sp) ->
  head_spec n 1 sp = nfirst_tree key n parts.
Proof. exact head_of_sorted_is_nfirst_tree. Qed.
Print Assumptions C11_sorted_head_is_nfirst.

Theorem C11_sorted_head_short_first_partition_refuted :
  exists (parts sp : list (list (Z * Z))) (n : nat),
    sorted_partitioning fst parts sp /\ length (hd [] sp) < n /\
    head_spec n 1 sp <> nfirst_spec fst n parts.
Proof. exact head_of_sorted_short_first_partition_refuted. Qed.
Print Assumptions C11_sorted_head_short_first_partition_refuted.

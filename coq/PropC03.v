(* PropC03.v -- property C03: a filter keeps exactly the rows that satisfy the user's predicate.
   Statements only; proofs in PredProofs.v, DNFProofs.v and ClassTableFilterFlags.v. *)
From DX Require Import Pred PredProofs.

(* OR-factoring (rewrite_filters): for EVERY And/Or predicate tree and EVERY three-valued valuation of
   its atoms (nullable booleans; plain booleans are the T/F fragment) the rewritten predicate has the
   same value, hence keeps exactly the same rows. *)
Theorem C03_or_factoring_sound : forall (p : pred) (v : nat -> k3), eval v (rewrite_filters p) = eval v p.
Proof. exact or_factoring_sound. Qed.
Print Assumptions C03_or_factoring_sound.

Theorem C03_or_factoring_keeps_rows : forall p v, keeps v (rewrite_filters p) = keeps v p.
Proof. exact or_factoring_keeps. Qed.
Print Assumptions C03_or_factoring_keeps_rows.

(* handing a filter to the parquet reader in disjunctive normal form (shared with C18) *)
From DX Require Import DNF DNFProofs.
(* every predicate that is handed to the reader (null-dropping, Kleene): it keeps exactly the rows pandas keeps *)
Theorem C03_reader_filter_sound : forall t d r,
  extract t = Some d -> pandas_keep t r = Some (arrow_keep d r).
Proof. exact dnf_sound. Qed.
Print Assumptions C03_reader_filter_sound.
(* handing `!=` to the reader (the behaviour before the fix of defect D7) makes the statement FALSE: a row whose
   compared value is missing satisfies the pandas predicate but is dropped by the reader *)
Theorem C03_reader_filter_ne_refuted : exists t d r,
  extract_with_ne t = Some d /\ pandas_keep t r = Some true /\ arrow_keep d r = false.
Proof. exact dnf_with_ne_refuted. Qed.
Print Assumptions C03_reader_filter_ne_refuted.
(* the reader never returns a row the predicate rejects *)
Theorem C03_reader_filter_under_approx : forall t d r,
  extract t = Some d -> arrow_keep d r = true -> pandas_keep t r = Some true.
Proof. exact dnf_under_approx. Qed.
Print Assumptions C03_reader_filter_under_approx.

(* T-GEN: every class of the current source that switches on the generic "filter may be evaluated below me" rule
   (_filter_passthrough) is on the reviewed list (ClassTableFilterFlags.v); the table is regenerated from /repo on every run *)
From DX Require Import ClassTableFilterFlags.
Theorem C03_filter_flags_reviewed : filter_flags_b = true.
Proof. exact filter_flags_reviewed. Qed.
Print Assumptions C03_filter_flags_reviewed.

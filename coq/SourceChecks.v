(* SourceChecks.v -- the definitions translated from the Python source (GeneratedSource.v) equal the hand-written
   model (Divisions.v), and the truthfulness theorems of DivisionsProofs.v restated for the translated source. *)
From DX Require Import Base ListFacts Divisions DivisionsProofs PySeq GeneratedSource.
From Coq Require Import ZifyBool.

(* PySeq.v and GeneratedSource.v leave Z_scope open for their importers; the statements below are written with
   nat as the default reading (`p < length parts`, `1 <= step`, ...) and explicit %Z where Z is meant. *)
Local Open Scope nat_scope.

Definition zs (l : list nat) : list Z := map Z.of_nat l.

Lemma py_len_zs : forall l, py_len (zs l) = Z.of_nat (length l).
Proof. intros. unfold py_len, zs. rewrite map_length. reflexivity. Qed.

Lemma last_zs : forall l, last (zs l) 0%Z = Z.of_nat (last l 0).
Proof. intros. unfold zs. change 0%Z with (Z.of_nat 0). apply last_map. Qed.

Lemma hd_zs : forall l, hd 0%Z (zs l) = Z.of_nat (hd 0 l).
Proof. intros. destruct l; reflexivity. Qed.

Lemma last_map_zs : forall bs : list (list nat), last (map zs bs) [] = zs (last bs []).
Proof. intros. change (@nil Z) with (zs []). apply last_map. Qed.

Lemma skipn_last2 : forall (n : nat) (l : list Z),
  length l = n + 2 -> skipn n l = [nth n l 0%Z; nth (n + 1) l 0%Z].
Proof.
  induction n as [|n IH]; intros l H.
  - destruct l as [|x [|y [|z l]]]; simpl in H; try lia. reflexivity.
  - destruct l as [|x l]; simpl in H; [lia|].
    simpl. apply IH. lia.
Qed.

Lemma src_is_strictly_increasing_ok : forall sel : list nat,
  src_is_strictly_increasing (zs sel) = strictly_increasingb sel.
Proof.
  intros sel. unfold src_is_strictly_increasing. cbv zeta.
  change (Some 1%Z) with (Some (Z.of_nat 1)). rewrite py_slice_from, <- (adjb_combine Z.ltb).
  unfold zs. rewrite adjb_map, strictly_increasingb_adjb. apply adjb_ext. intros a b. lia.
Qed.

Lemma src_Tail_ok : forall divs : list Z, (2 <= length divs)%nat ->
  src_Tail_divisions divs = tail_divisions divs.
Proof.
  intros divs H. unfold src_Tail_divisions, tail_divisions.
  change (- (2))%Z with (- Z.of_nat 2)%Z. rewrite py_slice_from_end by lia.
  rewrite (skipn_last2 (length divs - 2) divs) by lia.
  replace (length divs - 2 + 1) with (length divs - 1) by lia. reflexivity.
Qed.

Lemma src_BlockwiseHead_ok : forall (divs parts : list Z),
  src_BlockwiseHead_divisions divs parts = bhead_divisions divs (length parts).
Proof.
  intros divs parts. unfold src_BlockwiseHead_divisions, bhead_divisions.
  replace (py_len parts + 1)%Z with (Z.of_nat (length parts + 1)) by (unfold py_len; lia).
  apply py_slice_to.
Qed.

Lemma src_Head_ok : forall (divs : list Z) (k : nat),
  src_Head_divisions divs (Z.of_nat k) = head_divisions divs k.
Proof.
  intros divs k. unfold src_Head_divisions, head_divisions.
  destruct (Z.leb_spec (Z.of_nat k) (- (1))%Z) as [H|H]; [lia|].
  rewrite py_index_0_nth, py_index_nat. reflexivity.
Qed.

(* npartitions = -1 means "all partitions" *)
Lemma src_Head_all_ok : forall (divs : list Z) (k : Z), (k <= -1)%Z -> divs <> [] ->
  src_Head_divisions divs k = head_divisions divs (length divs - 1).
Proof.
  intros divs k Hk Hne. unfold src_Head_divisions, head_divisions.
  destruct (Z.leb_spec k (- (1))%Z) as [H|H]; [|lia].
  cbn [Z.opp]. rewrite py_index_0_nth, py_index_m1_last, last_nth. reflexivity.
Qed.

Lemma src_Fewer_ok : forall (divs : list Z) (bs : list nat),
  src_RepartitionToFewer_divisions divs (zs bs) = fewer_divisions divs bs.
Proof.
  intros divs bs. unfold src_RepartitionToFewer_divisions, fewer_divisions, zs.
  rewrite map_map. apply map_ext. intros b. apply py_index_nat.
Qed.

Definition of_model (n : nat) (o : option (list Z)) : pydivs :=
  match o with Some d => Known d | None => Unknown (Z.of_nat n + 1) end.

Lemma src_Partitions_ok : forall (divs : list Z) (sel : list nat),
  src_Partitions_divisions divs (zs sel) = of_model (length sel) (partitions_divisions divs sel).
Proof.
  intros divs sel. unfold src_Partitions_divisions, partitions_divisions, partitions_divisions_old.
  rewrite src_is_strictly_increasing_ok.
  destruct (strictly_increasingb sel); cbn [negb]; cbv iota zeta.
  - cbn [app of_model]. rewrite last_zs, py_index_succ. unfold zs. rewrite map_map.
    rewrite (map_ext _ _ (fun p => py_index_nat Z 0%Z divs p)). reflexivity.
  - rewrite py_len_zs. reflexivity.
Qed.

(* with filtered = true the translated body is that of Partitions._divisions, line for line *)
Lemma src_PartitionsFiltered_ok : forall (full : list Z) (filtered : bool) (sel : list nat),
  src_PartitionsFiltered_divisions full filtered (zs sel) =
  if filtered then of_model (length sel) (partitions_divisions full sel) else Known full.
Proof. intros full [|] sel; [exact (src_Partitions_ok full sel)|reflexivity]. Qed.

(* `seldivs` are the (known) divisions of the partition selection of the wrapped read; the unknown case returns (None,) * n
   before reaching the formula, and is outside the domain of known integer divisions modelled here *)
Lemma src_FusedIO_ok : forall (divs seldivs : list Z) (buckets : list (list nat)),
  src_FusedIO_divisions divs seldivs (map zs buckets) = Known (fused_divisions divs buckets).
Proof.
  intros divs seldivs buckets. unfold src_FusedIO_divisions, fused_divisions. cbv zeta.
  unfold py_is_none_Z. cbv iota. cbn [Z.opp]. f_equal. f_equal.
  - rewrite map_map. apply map_ext. intros b.
    rewrite py_index_0_hd, hd_zs. apply py_index_nat.
  - rewrite !py_index_m1_last, last_map_zs, last_zs, py_index_succ. reflexivity.
Qed.

Lemma src_Concat_monotonic_ok : forall dfs : list (list Z),
  src_Concat_monotonic_divisions dfs true = separatedb dfs.
Proof.
  intros dfs. unfold src_Concat_monotonic_divisions. cbv zeta iota. cbn [Z.opp].
  unfold py_range. replace (Z.to_nat (py_len dfs - 1)) with (length dfs - 1) by (unfold py_len; lia).
  rewrite separatedb_adjb, forallb_map, (adjb_seq _ []). apply forallb_ext. intros i.
  rewrite py_index_nat, py_index_succ, py_index_m1_last, py_index_0_hd. reflexivity.
Qed.

Lemma src_Concat_monotonic_unknown : forall dfs, src_Concat_monotonic_divisions dfs false = false.
Proof. intros. reflexivity. Qed.

(* holds for every dfs, the empty list included (both sides are []) *)
Lemma src_Concat_divisions_ok : forall dfs : list (list Z),
  src_Concat_divisions_monotonic dfs = join_divisions dfs.
Proof.
  intros dfs. unfold src_Concat_divisions_monotonic. cbv zeta. cbn [app]. cbn [Z.opp].
  rewrite py_slice_drop_last, py_index_m1_last.
  rewrite (flat_map_ext _ (@removelast Z) (fun df => py_slice_drop_last Z df)).
  induction dfs as [|A r IH]; [reflexivity|].
  destruct r as [|B r]; [reflexivity|].
  change (removelast (A :: B :: r)) with (A :: removelast (B :: r)).
  change (last (A :: B :: r) []) with (last (B :: r) (@nil Z)).
  change (join_divisions (A :: B :: r)) with (removelast A ++ join_divisions (B :: r)).
  cbn [flat_map]. rewrite <- app_assoc, IH. reflexivity.
Qed.

Theorem src_partitions_truthful : forall divs parts (sel : list nat) d',
  truthful divs parts -> (forall p, In p sel -> p < length parts) -> sel <> [] ->
  src_Partitions_divisions divs (zs sel) = Known d' -> truthful d' (select_parts parts sel).
Proof.
  intros divs parts sel d' Ht Hin Hne H. rewrite src_Partitions_ok in H.
  destruct (partitions_divisions divs sel) as [d|] eqn:E; simpl in H; [|discriminate].
  injection H as <-. eapply partitions_truthful; eauto.
Qed.

Theorem src_partitions_filtered_truthful : forall full parts (sel : list nat) d',
  truthful full parts -> (forall p, In p sel -> p < length parts) -> sel <> [] ->
  src_PartitionsFiltered_divisions full true (zs sel) = Known d' -> truthful d' (select_parts parts sel).
Proof.
  intros full parts sel d' Ht Hin Hne H. rewrite src_PartitionsFiltered_ok, <- src_Partitions_ok in H.
  exact (src_partitions_truthful full parts sel d' Ht Hin Hne H).
Qed.

Theorem src_partitions_unknown_count : forall divs (sel : list nat) n,
  src_Partitions_divisions divs (zs sel) = Unknown n -> n = (Z.of_nat (length sel) + 1)%Z.
Proof.
  intros divs sel n H. rewrite src_Partitions_ok in H.
  destruct (partitions_divisions divs sel) as [d|]; simpl in H; [discriminate|].
  injection H as <-. reflexivity.
Qed.

Theorem src_fused_truthful : forall divs seldivs parts parts_sel step d,
  truthful divs parts -> strictly_increasingb parts_sel = true ->
  (forall p, In p parts_sel -> p < length parts) -> 1 <= step -> parts_sel <> [] ->
  src_FusedIO_divisions divs seldivs (map zs (fusion_buckets parts_sel step)) = Known d ->
  truthful d (fused_parts parts (fusion_buckets parts_sel step)).
Proof.
  intros divs seldivs parts parts_sel step d Ht Hs Hb H1 Hne H. rewrite src_FusedIO_ok in H. injection H as <-.
  apply fused_truthful; assumption.
Qed.

Theorem src_fewer_truthful : forall divs parts bs,
  truthful divs parts -> chain bs (length parts) -> interior_below bs (length parts) ->
  truthful (src_RepartitionToFewer_divisions divs (zs bs)) (fewer_parts parts bs).
Proof. intros. rewrite src_Fewer_ok. apply fewer_truthful; assumption. Qed.

Theorem src_head_truthful : forall divs parts k nrows,
  truthful divs parts -> k <= length parts ->
  truthful (src_Head_divisions divs (Z.of_nat k)) (head_parts parts k nrows).
Proof. intros. rewrite src_Head_ok. apply head_truthful; assumption. Qed.

Theorem src_blockwise_head_truthful : forall divs parts (sel : list Z) nrows,
  truthful divs parts -> length sel <= length parts ->
  truthful (src_BlockwiseHead_divisions divs sel) (bhead_parts parts (length sel) nrows).
Proof. intros. rewrite src_BlockwiseHead_ok. apply bhead_truthful; assumption. Qed.

Theorem src_tail_truthful : forall divs parts nrows,
  truthful divs parts -> parts <> [] ->
  truthful (src_Tail_divisions divs) (tail_parts parts nrows).
Proof.
  intros divs parts nrows Ht Hne. rewrite src_Tail_ok.
  - apply tail_truthful; assumption.
  - destruct (truthful_lengths divs parts Ht Hne) as [Hlen Hn]. lia.
Qed.

Theorem src_concat_truthful : forall ds pss,
  Forall2 truthful ds pss -> ds <> [] ->
  src_Concat_monotonic_divisions ds true = true ->
  truthful (src_Concat_divisions_monotonic ds) (concat_parts pss).
Proof.
  intros ds pss HF Hne Hm. rewrite src_Concat_monotonic_ok in Hm. rewrite src_Concat_divisions_ok.
  exact (proj1 (join_truthful ds pss HF Hne Hm)).
Qed.

Print Assumptions src_is_strictly_increasing_ok.
Print Assumptions src_Tail_ok.
Print Assumptions src_BlockwiseHead_ok.
Print Assumptions src_Head_ok.
Print Assumptions src_Head_all_ok.
Print Assumptions src_Fewer_ok.
Print Assumptions src_Partitions_ok.
Print Assumptions src_PartitionsFiltered_ok.
Print Assumptions src_FusedIO_ok.
Print Assumptions src_Concat_monotonic_ok.
Print Assumptions src_Concat_monotonic_unknown.
Print Assumptions src_Concat_divisions_ok.
Print Assumptions src_partitions_truthful.
Print Assumptions src_partitions_filtered_truthful.
Print Assumptions src_partitions_unknown_count.
Print Assumptions src_fused_truthful.
Print Assumptions src_fewer_truthful.
Print Assumptions src_head_truthful.
Print Assumptions src_blockwise_head_truthful.
Print Assumptions src_tail_truthful.
Print Assumptions src_concat_truthful.

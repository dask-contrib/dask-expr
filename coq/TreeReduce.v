(* TreeReduce.v -- model of dask_expr/_reductions.py: TreeReduce._layer and the
   chunk / combine / aggregate decomposition of ApplyConcatApply._lower (tree variant).
   Serves C02 (partition independence of reductions) and C10 (split_every is a pure knob). *)
From DX Require Import Base.

Set Implicit Arguments.

Section Tree.
  Variables (A R : Type).
  Variable combine : list A -> A.
  Variable aggregate : list A -> R.
  (* what the decomposition needs from the user-level functions: combining batches first
     and aggregating afterwards equals aggregating everything at once. *)
  Hypothesis agg_combine :
    forall ls : list (list A), (forall b, In b ls -> b <> []) ->
      aggregate (map combine ls) = aggregate (concat ls).

  (* split_every: None = False (no tree), Some k = batches of k.  The while loop of
     TreeReduce._layer is recursion on fuel; fuel exhaustion is None, excluded below. *)
  Fixpoint tree_eval (fuel : nat) (se : option nat) (xs : list A) : option R :=
    match se with
    | None => Some (aggregate xs)
    | Some k =>
        if length xs <=? k then Some (aggregate xs)
        else match fuel with
             | 0 => None
             | S f => tree_eval f se (map combine (part_all k xs))
             end
    end.

  (* every round leaves fewer results than it found (2 <= k), so fuel = number of inputs is enough *)
  Lemma tree_eval_eq : forall fuel se xs,
    (forall k, se = Some k -> 2 <= k) -> length xs <= fuel -> tree_eval fuel se xs = Some (aggregate xs).
  Proof.
    induction fuel as [|f IH]; intros [k|] xs Hk Hl; cbn [tree_eval]; try reflexivity.
    - destruct (Nat.leb_spec (length xs) k); [reflexivity|lia].
    - pose proof (Hk k eq_refl) as Hk2. destruct (Nat.leb_spec (length xs) k) as [|Hlt]; [reflexivity|].
      rewrite IH; [|exact Hk|].
      + rewrite agg_combine.
        * rewrite part_all_concat by lia. reflexivity.
        * intros b Hb. eapply part_all_nonempty; [|exact Hb]. lia.
      + rewrite map_length. pose proof (@part_all_length_lt A k xs). lia.
  Qed.

  (* The layer as index structure, as TreeReduce._layer builds it:
     level j (j = 1, 2, ...) is a list of batches; a batch is the list of positions in
     level j-1 it combines (level 0 = the input keys).  The final aggregate task reads
     all keys of the last level. *)
  Fixpoint tree_layer (fuel : nat) (se : option nat) (n : nat) : option (list (list (list nat))) :=
    match se with
    | None => Some []
    | Some k =>
        if n <=? k then Some []
        else match fuel with
             | 0 => None
             | S f =>
                 let batches := part_all k (seq 0 n) in
                 match tree_layer f se (length batches) with
                 | Some ls => Some (batches :: ls)
                 | None => None
                 end
             end
    end.

  Variable d : A.
  Definition exec_level (cur : list A) (batches : list (list nat)) : list A :=
    map (fun b => combine (map (fun i => nth i cur d) b)) batches.
  Definition exec_layer (levels : list (list (list nat))) (xs : list A) : R :=
    aggregate (fold_left exec_level levels xs).

  Lemma exec_level_part : forall k cur,
    exec_level cur (part_all k (seq 0 (length cur))) = map combine (part_all k cur).
  Proof.
    intros k cur. unfold exec_level.
    rewrite <- (map_map (map (fun i => nth i cur d)) combine).
    rewrite <- part_all_map. rewrite map_nth_seq. reflexivity.
  Qed.

  Lemma part_all_seq_length : forall k (xs : list A),
    length (part_all k (seq 0 (length xs))) = length (part_all k xs).
  Proof.
    intros k xs. rewrite <- (map_nth_seq d xs) at 2. rewrite part_all_map, map_length. reflexivity.
  Qed.

  (* the layer is the trace of tree_eval: both run out of fuel together, and executing the
     levels replays the evaluation *)
  Lemma tree_eval_layer : forall fuel se xs,
    tree_eval fuel se xs
    = option_map (fun levels => exec_layer levels xs) (tree_layer fuel se (length xs)).
  Proof.
    induction fuel as [|f IH]; intros [k|] xs; cbn [tree_eval tree_layer]; try reflexivity;
      destruct (length xs <=? k); try reflexivity.
    rewrite IH, map_length, <- part_all_seq_length.
    destruct (tree_layer f (Some k) _); [|reflexivity].
    unfold exec_layer. cbn [option_map fold_left]. rewrite exec_level_part. reflexivity.
  Qed.

  (* The full statement for the layer: whatever split_every (False or any k >= 2) and however
     many input partitions, executing the generated layer equals aggregating the chunk
     results directly. *)
  Theorem tree_layer_correct : forall se xs,
    (forall k, se = Some k -> 2 <= k) ->
    exists levels, tree_layer (length xs) se (length xs) = Some levels /\
                   exec_layer levels xs = aggregate xs.
  Proof.
    intros se xs Hk. pose proof (tree_eval_layer (length xs) se xs) as E.
    rewrite tree_eval_eq in E by auto.
    destruct (tree_layer (length xs) se (length xs)) as [levels|]; [|discriminate E].
    exists levels. split; [reflexivity|]. injection E as E. symmetry. exact E.
  Qed.
End Tree.

Section Monoid.
  Variable M : Type.
  Variable op : M -> M -> M.
  Variable e : M.
  Hypothesis op_assoc : forall a b c, op a (op b c) = op (op a b) c.
  Hypothesis op_e_l : forall a, op e a = a.
  Definition mconcat (l : list M) : M := fold_right op e l.
  Lemma mconcat_app : forall a b, mconcat (a ++ b) = op (mconcat a) (mconcat b).
  Proof. induction a as [|x a IH]; intros b; simpl; [symmetry; apply op_e_l|]. rewrite IH. apply op_assoc. Qed.
  Lemma mconcat_hom : forall X (h : list X -> M), h [] = e -> (forall a b, h (a ++ b) = op (h a) (h b)) ->
    forall ps, mconcat (map h ps) = h (concat ps).
  Proof.
    intros X h h_nil h_app. induction ps as [|p ps IH]; cbn [map concat mconcat fold_right]; [symmetry; exact h_nil|].
    rewrite h_app. f_equal. exact IH.
  Qed.
  Lemma mconcat_flat : forall ls, mconcat (map mconcat ls) = mconcat (concat ls).
  Proof. exact (mconcat_hom mconcat eq_refl mconcat_app). Qed.

  (* Every reduction below has the same shape: the chunk function h is a monoid homomorphism from
     lists under ++ (what it computes on a column is the combination of what it computes on the
     pieces), and combine = aggregate = mconcat.  Then the tree over the chunk results of ANY
     partitioning ps, for ANY split_every, computes h of the concatenated column. *)
  Theorem tree_monoid_correct : forall X (h : list X -> M), h [] = e -> (forall a b, h (a ++ b) = op (h a) (h b)) ->
    forall (d : M) se (ps : list (list X)), (forall k, se = Some k -> 2 <= k) ->
    exists levels, tree_layer (length ps) se (length ps) = Some levels /\
      exec_layer mconcat mconcat d levels (map h ps) = h (concat ps).
  Proof.
    intros X h h_nil h_app d se ps Hk. rewrite <- (mconcat_hom h h_nil h_app), <- (map_length h ps).
    apply tree_layer_correct; [|exact Hk].
    intros ls _. apply mconcat_flat.
  Qed.
End Monoid.

Definition cell := option Z.   (* None = missing value *)
Definition opt_lift (f : Z -> Z -> Z) (a b : cell) : cell :=
  match a, b with None, x => x | x, None => x | Some x, Some y => Some (f x y) end.
Lemma opt_lift_assoc f : (forall a b c, f a (f b c) = f (f a b) c) ->
  forall a b c, opt_lift f a (opt_lift f b c) = opt_lift f (opt_lift f a b) c.
Proof. intros H [a|] [b|] [c|]; simpl; try reflexivity. rewrite H; reflexivity. Qed.

(* pandas meaning of a reduction on the whole column (skipna=True) *)
Definition present (col : list cell) : list Z := flat_map (fun c => match c with Some z => [z] | None => [] end) col.
Definition spec_sum (col : list cell) : Z := sumZ (present col).
Definition spec_count (col : list cell) : nat := length (present col).
Definition spec_len (col : list cell) : nat := length col.
Definition spec_max (col : list cell) : cell := mconcat (opt_lift Z.max) None (map Some (present col)).
Definition spec_min (col : list cell) : cell := mconcat (opt_lift Z.min) None (map Some (present col)).

Lemma present_app a b : present (a ++ b) = present a ++ present b.
Proof. unfold present. apply flat_map_app. Qed.

(* chunk / combine / aggregate of each reduction, as dask-expr instantiates them *)
Definition sum_chunk := spec_sum.              Definition sum_comb (l : list Z) := mconcat Z.add 0%Z l.
Definition count_chunk := spec_count.          Definition count_comb (l : list nat) := mconcat Nat.add 0 l.
Definition len_chunk := spec_len.
Definition max_chunk := spec_max.              Definition max_comb (l : list cell) := mconcat (opt_lift Z.max) None l.
Definition min_chunk := spec_min.              Definition min_comb (l : list cell) := mconcat (opt_lift Z.min) None l.

Lemma spec_sum_app a b : spec_sum (a ++ b) = (spec_sum a + spec_sum b)%Z.
Proof. unfold spec_sum. rewrite present_app. apply sumZ_app. Qed.
Lemma spec_count_app a b : spec_count (a ++ b) = spec_count a + spec_count b.
Proof. unfold spec_count. rewrite present_app. apply app_length. Qed.
(* max and min: any associative f on the present values, None for "no value yet" *)
Lemma spec_extremum_app f : (forall a b c, f a (f b c) = f (f a b) c) -> forall a b,
  mconcat (opt_lift f) None (map Some (present (a ++ b)))
  = opt_lift f (mconcat (opt_lift f) None (map Some (present a))) (mconcat (opt_lift f) None (map Some (present b))).
Proof.
  intros Hf a b. rewrite present_app, map_app. apply mconcat_app; [apply opt_lift_assoc, Hf|reflexivity].
Qed.

(* End-to-end statements: for EVERY partitioning ps of the column, EVERY split_every, the
   generated tree layer computes the pandas value of the concatenated column. *)
Theorem tree_sum_correct : forall se (ps : list (list cell)),
  (forall k, se = Some k -> 2 <= k) ->
  exists levels, tree_layer (length ps) se (length ps) = Some levels /\
    exec_layer sum_comb sum_comb 0%Z levels (map sum_chunk ps) = spec_sum (concat ps).
Proof. exact (tree_monoid_correct Z.add Z.add_assoc Z.add_0_l spec_sum eq_refl spec_sum_app 0%Z). Qed.

Theorem tree_max_correct : forall se (ps : list (list cell)),
  (forall k, se = Some k -> 2 <= k) ->
  exists levels, tree_layer (length ps) se (length ps) = Some levels /\
    exec_layer max_comb max_comb None levels (map max_chunk ps) = spec_max (concat ps).
Proof.
  exact (tree_monoid_correct (opt_lift Z.max) (e := None) (opt_lift_assoc Z.max Z.max_assoc) (fun a => eq_refl) spec_max eq_refl
           (spec_extremum_app Z.max Z.max_assoc) None).
Qed.

Theorem tree_min_correct : forall se (ps : list (list cell)),
  (forall k, se = Some k -> 2 <= k) ->
  exists levels, tree_layer (length ps) se (length ps) = Some levels /\
    exec_layer min_comb min_comb None levels (map min_chunk ps) = spec_min (concat ps).
Proof.
  exact (tree_monoid_correct (opt_lift Z.min) (e := None) (opt_lift_assoc Z.min Z.min_assoc) (fun a => eq_refl) spec_min eq_refl
           (spec_extremum_app Z.min Z.min_assoc) None).
Qed.

Theorem tree_count_correct : forall se (ps : list (list cell)),
  (forall k, se = Some k -> 2 <= k) ->
  exists levels, tree_layer (length ps) se (length ps) = Some levels /\
    exec_layer count_comb count_comb 0 levels (map count_chunk ps) = spec_count (concat ps).
Proof. exact (tree_monoid_correct Nat.add Nat.add_assoc Nat.add_0_l spec_count eq_refl spec_count_app 0). Qed.

Theorem tree_len_correct : forall se (ps : list (list cell)),
  (forall k, se = Some k -> 2 <= k) ->
  exists levels, tree_layer (length ps) se (length ps) = Some levels /\
    exec_layer count_comb count_comb 0 levels (map len_chunk ps) = spec_len (concat ps).
Proof. exact (tree_monoid_correct Nat.add Nat.add_assoc Nat.add_0_l spec_len eq_refl (@app_length cell) 0). Qed.

(* non-vacuity: 11 partitions, split_every = 3: three levels (4 batches, 2 batches, final) *)
Example tree_layer_11_3 :
  tree_layer 11 (Some 3) 11 = Some [[[0;1;2];[3;4;5];[6;7;8];[9;10]]; [[0;1;2];[3]]].
Proof. vm_compute. reflexivity. Qed.

(* PropC01.v -- property C01: optimization never changes what a query computes.
   Statements only.  C01 is an umbrella: each rewrite family has its theorem; what is proved here is
   (i) every rewrite step that the verified checker rule_ok accepts preserves the meaning of the whole plan
   (all envs, all tables) -- and every real step of the modelled fragment logged from the real optimizer is
   fed to rule_ok on every run; (ii) OR-factoring of predicates; (iii) the rewrites of positional selection
   (Head / Partitions pushed through element-wise operators, Head(SortValues) -> NFirst).  Rule families outside
   the fragment are covered by the differential sweeps only (named `partial`). *)
From DX Require Import Base Plan PlanProofs Pred PredProofs.

Theorem C01_step_sound_partial : forall parent result, rule_ok parent result = true ->
  forall rho o, den rho parent = Some o -> den rho result = Some o.
Proof. exact rule_ok_sound. Qed.
Print Assumptions C01_step_sound_partial.

(* a rule applied anywhere inside a bigger plan (all occurrences, as the name-keyed singleton plan does):
   an optimized query computes the same value and never fails where the original succeeds *)
Theorem C01_step_in_context_sound_partial : forall a b, rule_ok a b = true ->
  forall rho e o, den rho e = Some o -> den rho (subst a b e) = Some o.
Proof. exact step_in_context_sound. Qed.
Print Assumptions C01_step_in_context_sound_partial.

Theorem C01_schema_preserved : forall parent result, rule_ok parent result = true ->
  forall k, schema parent = Some k -> schema result = Some k.
Proof. exact rule_ok_schema. Qed.
Print Assumptions C01_schema_preserved.

Theorem C01_or_factoring : forall (p : pred) (v : nat -> k3), eval v (rewrite_filters p) = eval v p.
Proof. exact or_factoring_sound. Qed.
Print Assumptions C01_or_factoring.

(* rewrite rules about positional selection (Head / Tail pushed into element-wise operations, Partitions pushed into element-wise
   operations, Head(SortValues) -> NFirst): sound for all rows and partitionings under the stated side conditions *)
From DX Require Import Select SelectProofs.
Theorem C01_head_pushdown_elemwise_sound : forall A B C (f : A -> B -> C) n k (P1 : list (list A)) (P2 : list (list B)),
  same_shape P1 P2 ->
  head_spec n k (elemwise2 f P1 P2) = zipw f (head_spec n k P1) (head_spec n k P2).
Proof. exact head_spec_elemwise2. Qed.
Print Assumptions C01_head_pushdown_elemwise_sound.

Theorem C01_partitions_pushdown_elemwise_sound : forall A B C (f : A -> B -> C) sel (P1 : list (list A)) (P2 : list (list B)),
  same_shape P1 P2 -> Forall (fun i => i < length P1) sel ->
  select sel (elemwise2 f P1 P2) = elemwise2 f (select sel P1) (select sel P2).
Proof. exact select_elemwise2. Qed.
Print Assumptions C01_partitions_pushdown_elemwise_sound.

Theorem C01_sorted_head_rewrite_sound : forall A (key : A -> Z) n (parts sp : list (list A)),
  sorted_partitioning key parts sp -> n <= length (hd [] sp) ->
  head_spec n 1 sp = nfirst_tree key n parts.
Proof. exact head_of_sorted_is_nfirst_tree. Qed.
Print Assumptions C01_sorted_head_rewrite_sound.

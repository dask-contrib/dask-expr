(* PropC17.v -- property C17: materialization boundaries are transparent.  Statements only.
   A cut replaces a sub-plan by an opaque source holding its computed value.  In the plan semantics this is
   congruence: replacing a sub-plan by ANY plan with the same value on every input leaves the value of every
   context unchanged (and an optimizer step applied to the continued plan is still sound).  The imported
   graphs themselves are certified per run by wf_check (C09). *)
From DX Require Import Plan PlanProofs.

Theorem C17_congruence : forall a b, (forall rho, den rho a = den rho b) -> forall rho C, den rho (subst a b C) = den rho C.
Proof. exact den_congruence. Qed.
Print Assumptions C17_congruence.

Theorem C17_optimizing_the_continuation_is_sound : forall a b, rule_ok a b = true ->
  forall rho e o, den rho e = Some o -> den rho (subst a b e) = Some o.
Proof. exact step_in_context_sound. Qed.
Print Assumptions C17_optimizing_the_continuation_is_sound.

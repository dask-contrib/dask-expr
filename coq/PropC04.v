(* PropC04.v -- property C04: column pruning never changes a result.  Statements only.
   Every projection-pushdown step of the modelled fragment (projection through projection, elementwise
   operators, filters, binary operators, assign, rename, absorption into the source: schemas S1-S9 of
   Plan.v) is validated on every run by the verified checker; the theorems say that an accepted step
   keeps values, labels and order of the result for every input table and never makes a defined query
   undefined (no column found missing or duplicated). *)
From DX Require Import Plan PlanProofs.

Theorem C04_pruning_step_sound : forall parent result, rule_ok parent result = true ->
  forall rho o, den rho parent = Some o -> den rho result = Some o.
Proof. exact rule_ok_sound. Qed.
Print Assumptions C04_pruning_step_sound.

Theorem C04_pruning_in_context : forall a b, rule_ok a b = true ->
  forall rho e o, den rho e = Some o -> den rho (subst a b e) = Some o.
Proof. exact step_in_context_sound. Qed.
Print Assumptions C04_pruning_in_context.

(* labels and order of the result's columns are unchanged (static schema) *)
Theorem C04_result_labels_unchanged : forall parent result, rule_ok parent result = true ->
  forall k, schema parent = Some k -> schema result = Some k.
Proof. exact rule_ok_schema. Qed.
Print Assumptions C04_result_labels_unchanged.

(* the declared schema is the schema of the computed value *)
Theorem C04_schema_matches_value : forall rho e o, den rho e = Some o -> schema e = Some (kind_of o).
Proof. exact schema_sound. Qed.
Print Assumptions C04_schema_matches_value.

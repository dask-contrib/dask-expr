(* Drivers.v -- the fixed-point drivers of dask_expr/_core.py as functions of an arbitrary one-pass
   rewriter:  Expr.simplify (seen set + "Optimizer does not converge"), Expr.lower_completely and the
   fusion loop of optimize_blockwise_fusion.  Name equality is an arbitrary decidable equality. *)
From DX Require Import Base ListFacts.

Section Driver.
  Variable E : Type.
  Variable eqb : E -> E -> bool.
  Hypothesis eqb_eq : forall a b, eqb a b = true <-> a = b.
  Variable pass : E -> E.                      (* simplify_once / lower_once / _fusion_pass *)

  Inductive outcome := Converged (e : E) | NonConv | OutOfFuel.
  Definition memE (x : E) (l : list E) : bool := existsb (eqb x) l.

  (* Expr.simplify: loop until the name does not change; raise if a name was already seen *)
  Fixpoint simplify (fuel : nat) (seen : list E) (e : E) : outcome :=
    match fuel with
    | O => OutOfFuel
    | S f =>
        let new := pass e in
        if eqb new e then Converged e
        else if memE new seen then NonConv
        else simplify f (new :: seen) new
    end.

  (* Expr.lower_completely / the fusion while-loop: same without the seen set *)
  Fixpoint iterate (fuel : nat) (e : E) : outcome :=
    match fuel with
    | O => OutOfFuel
    | S f => let new := pass e in if eqb new e then Converged e else iterate f new
    end.

  Lemma eqb_refl : forall a, eqb a a = true.
  Proof. intros a. apply eqb_eq. reflexivity. Qed.

  Lemma eqb_spec : forall a b, reflect (a = b) (eqb a b).
  Proof. intros a b. apply iff_reflect. symmetry. apply eqb_eq. Qed.

  Theorem simplify_fixpoint : forall fuel seen e e', simplify fuel seen e = Converged e' -> pass e' = e'.
  Proof.
    induction fuel as [|f IH]; intros seen e e' H; simpl in H; [discriminate|].
    destruct (eqb_spec (pass e) e) as [E1|_].
    - inversion H; subst. exact E1.
    - destruct (memE (pass e) seen); [discriminate|]. eapply IH; eauto.
  Qed.

  Theorem simplify_idempotent : forall fuel seen e e', simplify fuel seen e = Converged e' ->
    forall fuel' seen', 1 <= fuel' -> simplify fuel' seen' e' = Converged e'.
  Proof.
    intros fuel seen e e' H fuel' seen' Hf. pose proof (simplify_fixpoint _ _ _ _ H) as Hp.
    destruct fuel' as [|f']; [lia|]. simpl. rewrite Hp, eqb_refl. reflexivity.
  Qed.

  Theorem iterate_fixpoint : forall fuel e e', iterate fuel e = Converged e' -> pass e' = e'.
  Proof.
    induction fuel as [|f IH]; intros e e' H; simpl in H; [discriminate|].
    destruct (eqb_spec (pass e) e) as [E1|_]; [inversion H; subst; exact E1|eauto].
  Qed.

  Theorem iterate_idempotent : forall fuel e e', iterate fuel e = Converged e' ->
    forall fuel', 1 <= fuel' -> iterate fuel' e' = Converged e'.
  Proof.
    intros fuel e e' H fuel' Hf. pose proof (iterate_fixpoint _ _ _ H) as Hp.
    destruct fuel' as [|f']; [lia|]. simpl. rewrite Hp, eqb_refl. reflexivity.
  Qed.

  (* termination from a measure that every changing pass strictly decreases *)
  Variable mu : E -> nat.
  Hypothesis mu_decr : forall e, pass e <> e -> mu (pass e) < mu e.

  Lemma memE_In : forall x l, memE x l = true -> In x l.
  Proof. intros x l. apply (existsb_eqb_In eqb eqb_eq). Qed.

  (* every element of `seen` is the current expression or has a measure strictly above it: no revisit is possible *)
  Theorem simplify_terminates_aux : forall fuel seen e,
    mu e < fuel -> (forall s, In s seen -> mu e < mu s \/ s = e) ->
    exists e', simplify fuel seen e = Converged e'.
  Proof.
    induction fuel as [|f IH]; intros seen e Hf Hseen; [lia|]. simpl.
    destruct (eqb_spec (pass e) e) as [|Hne]; [eexists; reflexivity|].
    pose proof (mu_decr _ Hne) as Hd.
    destruct (memE (pass e) seen) eqn:E2.
    - exfalso. apply memE_In in E2. destruct (Hseen _ E2) as [Hlt|Heq]; [lia|congruence].
    - apply IH; [lia|]. intros s [Hs|Hs]; [right; congruence|].
      left. destruct (Hseen _ Hs) as [Hlt|Heq]; [lia|subst; exact Hd].
  Qed.

  Theorem simplify_terminates : forall e, exists e', simplify (S (mu e)) [] e = Converged e'.
  Proof. intros e. apply simplify_terminates_aux; [lia|intros s []]. Qed.

  Theorem iterate_terminates : forall fuel e, mu e < fuel -> exists e', iterate fuel e = Converged e'.
  Proof.
    induction fuel as [|f IH]; intros e Hf; [lia|]. simpl.
    destruct (eqb_spec (pass e) e) as [|Hne]; [eexists; reflexivity|].
    apply IH. pose proof (mu_decr _ Hne). lia.
  Qed.
End Driver.

(* non-vacuity: a pass on nat that halves until 0 converges; a pass that flips 1 <-> 2 is reported NonConv *)
Example simplify_converges_example : simplify nat Nat.eqb (fun n => n / 2) 10 [] 37 = Converged nat 0.
Proof. reflexivity. Qed.
Example simplify_detects_cycle : simplify nat Nat.eqb (fun n => if n =? 1 then 2 else 1) 10 [] 1 = NonConv nat.
Proof. reflexivity. Qed.

(* PropC07.v -- property C07: declared schema matches the computed data.  Statements only. *)
From DX Require Import Plan PlanProofs.

(* the static schema (container kind, column labels and their order) of every plan of the fragment is the
   schema of the value it computes, on every input *)
Theorem C07_schema_sound : forall rho e o, den rho e = Some o -> schema e = Some (kind_of o).
Proof. exact schema_sound. Qed.
Print Assumptions C07_schema_sound.

(* optimization never changes the declared schema: every accepted rewrite step keeps it, also inside a context *)
Theorem C07_optimization_keeps_schema : forall parent result, rule_ok parent result = true ->
  forall k, schema parent = Some k -> schema result = Some k.
Proof. exact rule_ok_schema. Qed.
Print Assumptions C07_optimization_keeps_schema.

Theorem C07_optimization_keeps_schema_in_context : forall a b e k, rule_ok a b = true ->
  schema e = Some k -> schema (subst a b e) = Some k.
Proof. intros a b e k H Hk. exact (step_in_context_schema a b H e k Hk). Qed.
Print Assumptions C07_optimization_keeps_schema_in_context.

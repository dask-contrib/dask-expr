(* PropC13.v -- property C13: repartitioning preserves rows and order and honours the layout.
   Statements; the proofs live in RepartCount.v / RepartProofs.v (the two count-based statements put two of their
   theorems together here). *)
From DX Require Import Base Repart RepartCount.

(* count-based, fewer partitions: ANY non-decreasing boundary list from 0 to the number of input
   partitions (this is the contract the float-computed boundaries are checked against on every run) *)
Theorem C13_fewer_preserves_rows : forall (row : Type) (P : list (list row)) (bs : list nat),
  chain 0 bs (length P) ->
  concat (exec_fewer (0 :: bs) P) = concat P /\ length (exec_fewer (0 :: bs) P) = length bs.
Proof. intros; split; [apply fewer_eq; assumption | apply fewer_count]. Qed.
Print Assumptions C13_fewer_preserves_rows.

(* count-based, more partitions: split_evenly enters as a hypothesis (pieces concatenate back) *)
Theorem C13_more_preserves_rows : forall (row : Type) (split : nat -> list row -> list (list row)),
  (forall k p, 1 <= k -> concat (split k p) = p) -> (forall k p, length (split k p) = k) ->
  forall n_out (P : list (list row)), 1 <= length P -> length P <= n_out ->
    concat (exec_more split (more_nsplits (length P) n_out) P) = concat P /\
    length (exec_more split (more_nsplits (length P) n_out) P) = n_out.
Proof.
  intros row split H1 H2 n_out P Hp Hle.
  destruct (more_nsplits_ok Hp Hle) as [Hl [Hpos Hsum]]. split.
  - apply more_eq; assumption.
  - unfold exec_more. rewrite map_length, more_layer_length. exact Hsum.
Qed.
Print Assumptions C13_more_preserves_rows.

(* divisions-based: the verified plan checker.  Whatever plan is produced (by the model or by the real
   planner -- every real plan met by the harness is fed to plan_ok), if plan_ok accepts it then on EVERY
   data set that respects the old divisions each output partition holds exactly the rows of its target
   range, in the original order (lists, not just multisets).  Unbounded in everything. *)
From DX Require Import RepartProofs.
Theorem C13_plan_check_sound : forall (row : Type) (idx : row -> Z) (a b : list Z) (pl : plan) (P : list (list row)),
  valid_divs a = true -> valid_divs b = true ->
  plan_ok a b pl = true ->
  respects idx a P -> parts_sorted idx P ->
  exec_plan idx P pl = spec_plan idx b P.
Proof. exact plan_ok_sound. Qed.
Print Assumptions C13_plan_check_sound.

(* the planner itself (model = line-by-line mirror of RepartitionDivisions._layer, compared with the real
   dict on every run), for ALL old/new division vectors over an 8-value ordered domain with at most 7
   entries (492 vectors, 484 128 triples with force), repeated last values and single-value ranges
   included.  The bound belongs to this statement only: it is an instance of RepartProofs.repart_plan_correct,
   which holds for all valid division vectors of any length, with or without force (generator theorem
   RepartProofs.repart_plan_gen_ok_valid; no evaluation over the domain is involved). *)
Theorem C13_planner_correct_bounded : forall (row : Type) (idx : row -> Z) a b force pl (P : list (list row)),
  valid_divs a = true -> valid_divs b = true ->
  (length a <= 7)%nat -> (length b <= 7)%nat ->
  (forall x, In x a -> (0 <= x < 8)%Z) -> (forall x, In x b -> (0 <= x < 8)%Z) ->
  repart_plan a b force = Some pl ->
  respects idx a P -> parts_sorted idx P ->
  exec_plan idx P pl = spec_plan idx b P.
Proof. exact repart_plan_correct_bounded. Qed.
Print Assumptions C13_planner_correct_bounded.

(* the planner, UNBOUNDED, for strictly increasing division vectors without force (the common case:
   any lengths, any values): the generated plan exists and is accepted by the verified checker, hence
   correct on every data set.  For repeated last values and for force the same is proved in
   RepartProofs.repart_plan_gen_ok_valid (the plan exists whenever the validation prologue accepts the
   divisions, and passes the checker) and RepartProofs.repart_plan_correct. *)
Theorem C13_planner_correct_strict : forall (row : Type) (idx : row -> Z) (a b : list Z) (P : list (list row)),
  strict_incr a = true -> strict_incr b = true -> (2 <= length a)%nat -> (2 <= length b)%nat ->
  nthZ a 0 = nthZ b 0 -> lastZ a = lastZ b ->
  respects idx a P -> parts_sorted idx P ->
  exists pl, repart_plan a b false = Some pl /\ exec_plan idx P pl = spec_plan idx b P.
Proof. exact repart_plan_correct_strict. Qed.
Print Assumptions C13_planner_correct_strict.

(* PropC10.v -- property C10: execution knobs change performance only.
   Statements; most are closed by [exact] with a theorem of TreeReduce.v or of a proof file, three (the pair corollary
   and the two comparisons of shuffle stagings) by a few lines from such theorems. *)
From DX Require Import Base TreeReduce.

(* split_every (False or any k >= 2) never changes a tree reduction: for every list of
   chunk results the generated layer computes exactly what one flat aggregate computes. *)
Theorem C10_split_every_irrelevant :
  forall (A R : Type) (combine : list A -> A) (aggregate : list A -> R),
    (forall ls : list (list A), (forall b, In b ls -> b <> []) -> aggregate (map combine ls) = aggregate (concat ls)) ->
    forall (d : A) (se : option nat) (xs : list A),
      (forall k, se = Some k -> 2 <= k) ->
      exists levels, tree_layer (length xs) se (length xs) = Some levels /\
                     exec_layer combine aggregate d levels xs = aggregate xs.
Proof. exact tree_layer_correct. Qed.
Print Assumptions C10_split_every_irrelevant.

Corollary C10_split_every_pair :
  forall (A R : Type) (combine : list A -> A) (aggregate : list A -> R),
    (forall ls : list (list A), (forall b, In b ls -> b <> []) -> aggregate (map combine ls) = aggregate (concat ls)) ->
    forall (d : A) (se1 se2 : option nat) (xs : list A),
      (forall k, se1 = Some k -> 2 <= k) -> (forall k, se2 = Some k -> 2 <= k) ->
      exists l1 l2, tree_layer (length xs) se1 (length xs) = Some l1 /\ tree_layer (length xs) se2 (length xs) = Some l2 /\
                    exec_layer combine aggregate d l1 xs = exec_layer combine aggregate d l2 xs.
Proof.
  intros A R c a H d se1 se2 xs H1 H2.
  destruct (tree_layer_correct c a H d xs H1) as (l1 & E1 & Q1).
  destruct (tree_layer_correct c a H d xs H2) as (l2 & E2 & Q2).
  exists l1, l2. rewrite Q1, Q2. auto.
Qed.
Print Assumptions C10_split_every_pair.

(* shuffle staging (max_branch -> branch factor k and stage count): any two admissible stagings deliver, at
   every requested output position, the same rows up to order; the single-stage shuffle likewise *)
From Coq Require Import Permutation.
From DX Require Import ListFacts Shuffle ShuffleProofs.
Theorem C10_max_branch_irrelevant : forall (payload : Type) (n_in n_out k1 s1 k2 s2 : nat) (sel : list nat) (f1 f2 : bool) (Ps : list (list (row payload))),
  length Ps = n_in -> 1 <= n_in -> n_in <= n_out ->
  2 <= k1 -> n_in <= k1 ^ s1 -> 1 <= s1 -> 2 <= k2 -> n_in <= k2 ^ s2 -> 1 <= s2 ->
  (forall p, In p sel -> p < n_out) -> (forall P r, In P Ps -> In r P -> target r < n_out) ->
  exists o1 o2, exec_shuffle (task_layer n_in n_out k1 s1 sel f1) Ps = Some o1 /\
                exec_shuffle (task_layer n_in n_out k2 s2 sel f2) Ps = Some o2 /\
                forall i, i < length sel -> Permutation (nth i o1 []) (nth i o2 []).
Proof.
  intros payload n_in n_out k1 s1 k2 s2 sel f1 f2 Ps Hl H1 H2 Hk1 Hp1 Hs1 Hk2 Hp2 Hs2 Hsel Ht.
  destruct (staged_route payload n_in n_out k1 s1 sel f1 Ps) as (o1 & E1 & _ & P1); try assumption.
  destruct (staged_route payload n_in n_out k2 s2 sel f2 Ps) as (o2 & E2 & _ & P2); try assumption.
  exists o1, o2. split; [exact E1|]. split; [exact E2|].
  intros i Hi. rewrite (P1 i Hi), (P2 i Hi). reflexivity.
Qed.
Print Assumptions C10_max_branch_irrelevant.

(* staged vs single-stage *)
Theorem C10_staged_vs_simple : forall (payload : Type) (n_in n_out k s : nat) (sel : list nat) (f1 f2 : bool) (Ps : list (list (row payload))),
  length Ps = n_in -> 1 <= n_in -> n_in <= n_out -> 2 <= k -> n_in <= k ^ s -> 1 <= s ->
  (forall p, In p sel -> p < n_out) -> (forall P r, In P Ps -> In r P -> target r < n_out) ->
  exists o1, exec_shuffle (task_layer n_in n_out k s sel f1) Ps = Some o1 /\
             exec_shuffle (simple_layer n_in n_out sel f2) Ps = Some (map (routed Ps) sel) /\
             forall i, i < length sel -> Permutation (nth i o1 []) (nth i (map (routed Ps) sel) []).
Proof.
  intros payload n_in n_out k s sel f1 f2 Ps Hl H1 H2 Hk Hp Hs Hsel Ht.
  destruct (staged_route payload n_in n_out k s sel f1 Ps) as (o1 & E1 & _ & P1); try assumption.
  exists o1. split; [exact E1|]. split; [apply simple_route; assumption|].
  intros i Hi. rewrite (nth_map_lt 0) by exact Hi. exact (P1 i Hi).
Qed.
Print Assumptions C10_staged_vs_simple.

(* the presorted fast path of set_index / sort_values (an automatic choice among algorithms): the divisions it reports are
   truthful exactly under the strict test max_i < min_{i+1}; the relaxed test is refuted *)
From DX Require Import Divisions MinMax MinMaxProofs.
Theorem C10_presorted_fast_path_truthful : forall l parts d,
  stats_ok l parts -> wf_stats l -> presorted_divisions l = Some d -> truthful d parts.
Proof. exact presorted_truthful. Qed.
Print Assumptions C10_presorted_fast_path_truthful.

Theorem C10_presorted_touching_refuted : exists l parts d,
  stats_ok l parts /\ wf_stats l /\ presorted_divisions_touching l = Some d /\ ~ truthful d parts.
Proof. exact presorted_touching_refuted. Qed.
Print Assumptions C10_presorted_touching_refuted.

(* sort_values / set_index: whatever divisions the planner computed (npartitions, upsample, quantile estimates -- the
   theorem quantifies over every division vector), rows are routed by `set_partitions_pre` (SetIndex.v, tied by T-LAYER
   `setindex_layer`) so that every key of an earlier output partition is <= (descending: >=) every key of a later one:
   sorting the partitions one by one gives a globally sorted frame, and (C06_set_index_partition_exact) no row is lost or
   duplicated.  The knobs therefore change the partition layout only. *)
From DX Require Import SetIndex SetIndexProofs.
Theorem C10_sort_any_divisions_ordered : forall divs rows i j x y, 2 <= length divs -> keys_above divs rows ->
  i < j -> j < length divs - 1 ->
  In x (nth i (sp_parts divs rows) []) -> In y (nth j (sp_parts divs rows) []) -> (x <= y)%Z.
Proof. exact sort_partitions_ordered. Qed.
Print Assumptions C10_sort_any_divisions_ordered.

Theorem C10_sort_desc_any_divisions_ordered : forall divs rows i j x y, 2 <= length divs -> keys_above divs rows ->
  i < j -> j < length divs - 1 ->
  In x (nth i (sp_parts_desc divs rows) []) -> In y (nth j (sp_parts_desc divs rows) []) -> (y <= x)%Z.
Proof. exact sort_desc_partitions_ordered. Qed.
Print Assumptions C10_sort_desc_any_divisions_ordered.

Theorem C10_sort_below_refuted : exists divs rows i j x y, 2 <= length divs /\ i < j /\ j < length divs - 1 /\
  In x (nth i (sp_parts divs rows) []) /\ In y (nth j (sp_parts divs rows) []) /\ (y < x)%Z.
Proof. exact sort_partitions_below_refuted. Qed.
Print Assumptions C10_sort_below_refuted.

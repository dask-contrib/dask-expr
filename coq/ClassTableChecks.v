(* ClassTableChecks.v -- reflective obligations over the class table that harness/gen_tables.py regenerates from the
   source tree on every run (T-GEN): helpers, and the name-head obligation of C08.  The obligations of the other properties
   are in ClassTableFilterFlags.v (C03), ClassTableLengthFlags.v, ClassTableDivisions.v (C06), ClassTableState.v (C15 / C16);
   the first two take [mems] from this file. *)
From Coq Require Import String List Bool.
From DX Require Import ListFacts GeneratedClassTable.
Import ListNotations.
Open Scope string_scope.

Definition mems (s : string) (l : list string) : bool := existsb (String.eqb s) l.
Definition memp (a b : string) (l : list (string * string)) : bool :=
  existsb (fun p => (String.eqb a (fst p) && String.eqb b (snd p)) || (String.eqb b (fst p) && String.eqb a (snd p))) l.
Definition prefix_is (p s : string) : bool := String.prefix p s.

(* name = head ++ "-" ++ token(class?, operands).  Two classes with the same static head and the same number of
   operands can only be told apart by their operands -- unless the class itself is tokenized (c_token_class, read off
   the AST of the _name implementation each class inherits).  Classes with a custom or operand-dependent head are
   handled by their own _name implementation (prefix/label + token of all operands). *)
(* Every Blockwise name tokenizes its class together with the operands (fix D100: `df.columns = mapping` and
   `df.rename(columns=mapping)` have equal operands and shared a head), so no pair is exempted by hand. *)
Definition reviewed_pairs : list (string * string) := [].

Definition static_head (c : class_info) : bool :=
  negb (prefix_is "custom:" (c_head c)) && negb (prefix_is "dynamic:" (c_head c)).

Definition pair_ok (c1 c2 : class_info) : bool :=
  String.eqb (c_name c1) (c_name c2)
  || negb (String.eqb (c_head c1) (c_head c2))
  || negb (static_head c1)
  || negb (Nat.eqb (c_arity c1) (c_arity c2))
  || c_variadic c1 || c_variadic c2
  || (c_token_class c1 && c_token_class c2)      (* the class itself is part of the tokenized data of both names (fix D100) *)
  || memp (c_name c1) (c_name c2) reviewed_pairs.

Definition heads_unambiguous_b : bool :=
  forallb (fun c1 => forallb (fun c2 => pair_ok c1 c2) class_table) class_table.

Lemma pair_ok_arity : forall c1 c2,
  pair_ok c1 c2 = if Nat.eqb (c_arity c1) (c_arity c2) then pair_ok c1 c2 else true.
Proof.
  intros c1 c2. unfold pair_ok. destruct (Nat.eqb (c_arity c1) (c_arity c2)); [reflexivity|].
  cbn [negb]. rewrite !orb_true_r. reflexivity.
Qed.

Lemma heads_unambiguous : heads_unambiguous_b = true.
Proof.
  (* only two classes of equal arity can collide; [||] evaluates both sides under vm_compute, so the test on the
     arities is put in front with [if], and evaluation skips the string comparisons for all other pairs (88 % of
     the present table) *)
  unfold heads_unambiguous_b.
  rewrite (forallb_ext _ _ _ (fun c1 => forallb_ext _ _ _ (pair_ok_arity c1))).
  vm_compute. reflexivity.
Qed.


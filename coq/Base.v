(* Base.v -- toolz.partition_all (part_all), sums over lists, and the facts about them that models and proofs share. *)
From Coq Require Export List Arith ZArith Bool Lia.
Export ListNotations.

Set Implicit Arguments.

(* partition_all k l  (toolz.partition_all): consecutive batches of k elements, the
   last one possibly shorter; fuel = length l suffices when 1 <= k. *)
Fixpoint part_all_f {A} (fuel k : nat) (l : list A) : list (list A) :=
  match fuel with
  | 0 => []
  | S f => match l with
           | [] => []
           | _ => firstn k l :: part_all_f f k (skipn k l)
           end
  end.
Definition part_all {A} (k : nat) (l : list A) : list (list A) := part_all_f (length l) k l.

Lemma part_all_f_concat : forall A fuel k (l : list A),
  1 <= k -> length l <= fuel -> concat (part_all_f fuel k l) = l.
Proof.
  induction fuel as [|f IH]; intros k l Hk Hl.
  - destruct l; simpl in *; [reflexivity|lia].
  - destruct l as [|x xs]; [reflexivity|].
    cbn [part_all_f concat]. rewrite IH.
    + apply firstn_skipn.
    + exact Hk.
    + rewrite skipn_length. cbn [length] in *. lia.
Qed.

Lemma part_all_concat : forall A k (l : list A), 1 <= k -> concat (part_all k l) = l.
Proof. intros. apply part_all_f_concat; auto. Qed.

Lemma part_all_f_map : forall A B (g : A -> B) fuel k (l : list A),
  part_all_f fuel k (map g l) = map (map g) (part_all_f fuel k l).
Proof.
  induction fuel as [|f IH]; intros k l; [reflexivity|].
  destruct l as [|x xs]; [reflexivity|].
  cbn [part_all_f map]. rewrite <- IH, <- firstn_map, <- skipn_map. reflexivity.
Qed.

Lemma part_all_map : forall A B (g : A -> B) k (l : list A),
  part_all k (map g l) = map (map g) (part_all k l).
Proof. intros. unfold part_all. rewrite map_length. apply part_all_f_map. Qed.

Lemma part_all_f_nonempty : forall A fuel k (l b : list A),
  1 <= k -> In b (part_all_f fuel k l) -> b <> [] /\ length b <= k.
Proof.
  induction fuel as [|f IH]; intros k l b Hk Hin; [inversion Hin|].
  destruct l as [|x xs]; [inversion Hin|].
  cbn [part_all_f] in Hin. destruct Hin as [<-|Hin].
  - split.
    + destruct k; [lia|]. simpl. discriminate.
    + apply firstn_le_length.
  - eapply IH; eauto.
Qed.

Lemma part_all_nonempty : forall A k (l b : list A),
  1 <= k -> In b (part_all k l) -> b <> [] /\ length b <= k.
Proof. intros A k l. apply part_all_f_nonempty. Qed.

Lemma part_all_f_length_le : forall A fuel k (l : list A),
  1 <= k -> length (part_all_f fuel k l) <= length l.
Proof.
  induction fuel as [|f IH]; intros k l Hk; [simpl; lia|].
  destruct l as [|x xs]; cbn [part_all_f length]; [lia|].
  specialize (IH k (skipn k (x :: xs)) Hk). rewrite skipn_length in IH. cbn [length] in IH. lia.
Qed.

Lemma part_all_length_lt : forall A k (l : list A),
  2 <= k -> 2 <= length l -> length (part_all k l) < length l.
Proof.
  intros A k l Hk Hl. unfold part_all. destruct l as [|x xs]; [simpl in Hl; lia|].
  cbn [length part_all_f] in *.
  pose proof (@part_all_f_length_le A (length xs) k (skipn k (x :: xs))) as H.
  rewrite skipn_length in H. cbn [length] in H. lia.
Qed.

Lemma map_nth_seq : forall A (d : A) (l : list A), map (fun i => nth i l d) (seq 0 (length l)) = l.
Proof.
  intros A d l. induction l as [|x xs IH]; [reflexivity|].
  cbn [length seq map nth]. rewrite <- seq_shift, map_map. f_equal. exact IH.
Qed.

Fixpoint sumZ (l : list Z) : Z := match l with [] => 0%Z | x :: r => (x + sumZ r)%Z end.
Lemma sumZ_app : forall a b, sumZ (a ++ b) = (sumZ a + sumZ b)%Z.
Proof. induction a; simpl; intros; [reflexivity|rewrite IHa; lia]. Qed.
Lemma sumZ_concat : forall ls, sumZ (map sumZ ls) = sumZ (concat ls).
Proof. induction ls; simpl; [reflexivity|rewrite sumZ_app, IHls; reflexivity]. Qed.

Fixpoint sumN (l : list nat) : nat := match l with [] => 0 | x :: r => x + sumN r end.
Lemma sumN_app : forall a b, sumN (a ++ b) = sumN a + sumN b.
Proof. induction a; simpl; intros; [reflexivity|rewrite IHa; lia]. Qed.

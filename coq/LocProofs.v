(* LocProofs.v -- label slicing `df.loc[lo:hi]` (Loc.v).  part_of is monotone and inverts row_ok; from that, a slice
   returns exactly the rows of the closed range, in order, and reports truthful divisions.  Then index arithmetic
   applied to divisions (Binop._divisions). *)
From DX Require Import Base ListFacts Divisions DivisionsProofs Loc.

Definition slice_ok (lo hi : option Z) : Prop :=
  match lo, hi with Some l, Some h => (l <= h)%Z | _, _ => True end.

Lemma nth_skipn_add : forall (A : Type) (s : nat) (l : list A) (j : nat) (d : A),
  nth j (skipn s l) d = nth (s + j) l d.
Proof.
  intros A s. induction s as [|s IH]; intros l j d; [reflexivity|].
  destruct l as [|a l]; [destruct j; reflexivity|].
  simpl. apply IH.
Qed.

Lemma last_nth_S : forall (A : Type) (l : list A) (d : A), 2 <= length l -> last l d = nth (S (length l - 2)) l d.
Proof. intros A l d H. rewrite last_nth. f_equal. lia. Qed.

Lemma bisect_right_le_length : forall divs v, bisect_right divs v <= length divs.
Proof.
  induction divs as [|a r IH]; intros v; simpl; [lia|].
  destruct (a <=? v)%Z; [specialize (IH v)|]; lia.
Qed.

Lemma bisect_right_prefix : forall divs v i, i < bisect_right divs v -> (nth i divs 0 <= v)%Z.
Proof.
  induction divs as [|a r IH]; intros v i H; simpl in H; [lia|].
  destruct (a <=? v)%Z eqn:E; [|lia].
  destruct i as [|i]; simpl.
  - apply Z.leb_le. exact E.
  - apply IH. lia.
Qed.

Lemma bisect_right_next : forall divs v,
  bisect_right divs v < length divs -> (v < nth (bisect_right divs v) divs 0)%Z.
Proof.
  induction divs as [|a r IH]; intros v H; simpl in H; [lia|].
  simpl. destruct (a <=? v)%Z eqn:E.
  - simpl. apply IH. simpl in H. lia.
  - simpl. apply Z.leb_gt. exact E.
Qed.

(* monotone in v, read strictly: the entry that stops the count for v is counted for w *)
Lemma bisect_right_lt : forall divs v w, bisect_right divs v < bisect_right divs w -> (v < w)%Z.
Proof.
  intros divs v w H.
  pose proof (bisect_right_le_length divs w) as Hw.
  pose proof (bisect_right_prefix divs w _ H).
  pose proof (bisect_right_next divs v ltac:(lia)). lia.
Qed.

Lemma bisect_right_lt_iff : forall divs v k, sortedZ divs -> k < length divs ->
  (k < bisect_right divs v <-> (nth k divs 0 <= v)%Z).
Proof.
  intros divs v k Hs Hk. split; [apply bisect_right_prefix|]. intros Hv.
  destruct (Nat.lt_ge_cases k (bisect_right divs v)) as [H|H]; [exact H|].
  pose proof (bisect_right_next divs v ltac:(lia)).
  pose proof (sortedZ_le divs _ k Hs H Hk). lia.
Qed.

(* on naturals the `max 0` does nothing *)
Lemma part_of_eq : forall divs v, part_of divs v = Nat.min (length divs - 2) (bisect_right divs v - 1).
Proof. reflexivity. Qed.

Lemma part_of_bound : forall divs v, part_of divs v <= length divs - 2.
Proof. intros divs v. rewrite part_of_eq. apply Nat.le_min_l. Qed.

Lemma part_of_lower : forall divs v, 0 < part_of divs v -> (nth (part_of divs v) divs 0 <= v)%Z.
Proof. intros divs v H. apply bisect_right_prefix. rewrite part_of_eq in *. lia. Qed.

Lemma part_of_upper : forall divs v, sortedZ divs -> part_of divs v < length divs - 2 ->
  (v < nth (S (part_of divs v)) divs 0)%Z.
Proof.
  intros divs v Hs H. apply Z.nle_gt. rewrite <- bisect_right_lt_iff by (assumption || lia).
  rewrite part_of_eq in *. lia.
Qed.

Lemma part_of_lt : forall divs v w, part_of divs v < part_of divs w -> (v < w)%Z.
Proof. intros divs v w H. apply (bisect_right_lt divs). rewrite !part_of_eq in H. lia. Qed.

(* part_of inverts row_ok: partition j is the one part_of finds for each of its values, and conversely the
   partition found for a value inside the divisions holds it *)
Lemma row_ok_part_of : forall divs j x, sortedZ divs -> S j < length divs ->
  row_ok divs (length divs - 1) j x -> part_of divs x = j.
Proof.
  intros divs j x Hs Hj [Hlo Hhi].
  apply (bisect_right_lt_iff divs x j Hs) in Hlo; [|lia].
  rewrite part_of_eq. destruct Hhi as [Hhi|[Hlast _]].
  - (* below the next division the count stops at S j *)
    rewrite <- Z.nle_gt, <- (bisect_right_lt_iff divs x (S j) Hs Hj) in Hhi. lia.
  - (* in the last partition it may run to the end, and `min` cuts it back *)
    pose proof (bisect_right_le_length divs x). lia.
Qed.

Lemma part_of_row_ok : forall divs v, sortedZ divs -> 2 <= length divs ->
  (nth 0 divs 0 <= v <= nth (length divs - 1) divs 0)%Z ->
  row_ok divs (length divs - 1) (part_of divs v) v.
Proof.
  intros divs v Hs Hl [H0 H1]. pose proof (part_of_bound divs v) as Hb. split.
  - destruct (Nat.eq_dec (part_of divs v) 0) as [->|E]; [exact H0|apply part_of_lower; lia].
  - destruct (Nat.eq_dec (part_of divs v) (length divs - 2)) as [E|E].
    + right. rewrite E. replace (S (length divs - 2)) with (length divs - 1) by lia. split; [reflexivity|exact H1].
    + left. apply part_of_upper; [exact Hs|lia].
Qed.

Lemma row_part_of : forall divs parts j x,
  truthful divs parts -> j < length parts -> In x (nth j parts []) -> part_of divs x = j.
Proof.
  intros divs parts j x (Hl & Hs & Hr) Hj Hx. apply row_ok_part_of; [exact Hs|lia|].
  replace (length divs - 1) with (length parts) by lia. apply Hr; assumption.
Qed.

Lemma stop_bounds : forall divs lo hi,
  ls_start divs lo <= ls_stop divs lo hi /\ ls_stop divs lo hi <= length divs - 2.
Proof.
  intros divs lo hi.
  assert (Hs : ls_start divs lo <= length divs - 2) by (destruct lo; simpl; [apply part_of_bound|lia]).
  destruct hi as [h|]; simpl; [pose proof (part_of_bound divs h)|]; lia.
Qed.

(* whether a label passes the two tests of the slice is decided by the partition part_of locates it in *)
Lemma ge_lo_start : forall divs lo x,
  (part_of divs x < ls_start divs lo -> ge_lo lo x = false) /\ (ls_start divs lo < part_of divs x -> ge_lo lo x = true).
Proof.
  intros divs [l|] x; simpl; [|split; [lia|reflexivity]].
  split; intros H; apply part_of_lt in H; lia.
Qed.

Lemma le_hi_stop : forall divs lo hi x,
  (ls_start divs lo <= part_of divs x < ls_stop divs lo hi -> le_hi hi x = true) /\
  (ls_stop divs lo hi < part_of divs x -> le_hi hi x = false).
Proof.
  intros divs lo [h|] x; simpl.
  - pose proof (part_of_lt divs x h). pose proof (part_of_lt divs h x). lia.
  - pose proof (part_of_bound divs x). split; [reflexivity|lia].
Qed.

(* every output partition is the plain closed-range filter of its input partition *)
Lemma ls_part_eq : forall divs parts lo hi i,
  truthful divs parts -> parts <> [] ->
  i <= ls_stop divs lo hi - ls_start divs lo ->
  ls_part parts lo hi (ls_start divs lo) (ls_stop divs lo hi) i
  = filter (in_slice lo hi) (nth (ls_start divs lo + i) parts []).
Proof.
  intros divs parts lo hi i Ht Hne Hi.
  destruct (truthful_lengths divs parts Ht Hne) as [Hl Hn].
  destruct (stop_bounds divs lo hi) as [Hb1 Hb2].
  (* a test that ls_part leaves out holds anyway: the lower one above the start partition, the upper one below the
     stop partition *)
  assert (Hr : forall x, In x (nth (ls_start divs lo + i) parts []) ->
            (0 < i -> ge_lo lo x = true) /\ (ls_start divs lo + i < ls_stop divs lo hi -> le_hi hi x = true)).
  { intros x Hx. pose proof (row_part_of divs parts (ls_start divs lo + i) x Ht ltac:(lia) Hx) as E.
    destruct (ge_lo_start divs lo x) as [_ Ha], (le_hi_stop divs lo hi x) as [Hb _]. rewrite E in *.
    split; intros; [apply Ha|apply Hb]; lia. }
  unfold ls_part, in_slice.
  destruct (Nat.eqb_spec (ls_stop divs lo hi) (ls_start divs lo)); [reflexivity|].
  destruct (Nat.eqb_spec i 0); [|destruct (Nat.eqb_spec (ls_start divs lo + i) (ls_stop divs lo hi))].
  - apply filter_ext_in. intros x Hx. destruct (Hr x Hx) as [_ Hd]. rewrite Hd by lia. symmetry. apply andb_true_r.
  - apply filter_ext_in. intros x Hx. destruct (Hr x Hx) as [Hc _]. rewrite Hc by lia. reflexivity.
  - symmetry. apply filter_true. intros x Hx. destruct (Hr x Hx) as [Hc Hd]. rewrite Hc, Hd by lia. reflexivity.
Qed.

Lemma loc_parts_length : forall divs parts lo hi,
  length (loc_parts divs parts lo hi) = ls_stop divs lo hi - ls_start divs lo + 1.
Proof. intros. unfold loc_parts. rewrite map_length, seq_length. reflexivity. Qed.

(* what the definitions alone give: a row of output partition i is a row of input partition start + i; the first
   output partition is cut below, the last above *)
Lemma loc_parts_In : forall divs parts lo hi i x, In x (nth i (loc_parts divs parts lo hi) []) ->
  i <= ls_stop divs lo hi - ls_start divs lo /\ In x (nth (ls_start divs lo + i) parts []) /\
  (i = 0 -> ge_lo lo x = true) /\ (ls_start divs lo + i = ls_stop divs lo hi -> le_hi hi x = true).
Proof.
  intros divs parts lo hi i x. unfold loc_parts.
  destruct (Nat.le_gt_cases i (ls_stop divs lo hi - ls_start divs lo)) as [Hi|Hi].
  - rewrite nth_map_seq by lia. unfold ls_part, in_slice.
    (* the four shapes of ls_part: the only touched partition, the first, the last, one in between *)
    destruct (Nat.eqb_spec (ls_stop divs lo hi) (ls_start divs lo));
      [|destruct (Nat.eqb_spec i 0); [|destruct (Nat.eqb_spec (ls_start divs lo + i) (ls_stop divs lo hi))]];
      rewrite ?filter_In, ?andb_true_iff; intuition lia.
  - rewrite nth_overflow by (rewrite map_length, seq_length; lia). intros [].
Qed.

(* the slice returns exactly the rows of the closed range, in order; `slice_ok lo hi` is not needed: a reversed slice
   keeps stop >= start by the `max` in ls_stop (fix D45) and selects nothing *)
Theorem loc_rows_gen : forall divs parts lo hi,
  truthful divs parts -> parts <> [] ->
  concat (loc_parts divs parts lo hi) = filter (in_slice lo hi) (concat parts).
Proof.
  intros divs parts lo hi Ht Hne.
  destruct (truthful_lengths divs parts Ht Hne) as [Hl Hn].
  destruct (stop_bounds divs lo hi) as [Hb1 Hb2].
  rewrite <- (concat_nth_seq parts), filter_flat_map.
  rewrite (flat_map_window _ (ls_start divs lo) (ls_stop divs lo hi - ls_start divs lo + 1)).
  - unfold loc_parts. rewrite <- flat_map_concat_map. apply flat_map_ext_in. intros i Hi. apply in_seq in Hi.
    apply ls_part_eq; [exact Ht|exact Hne|lia].
  - lia.
  - (* outside start .. stop nothing passes the filter *)
    intros i Hi Ho. apply filter_false. intros x Hx. unfold in_slice.
    destruct (ge_lo_start divs lo x) as [Ha _], (le_hi_stop divs lo hi x) as [_ Hb].
    rewrite (row_part_of divs parts i x Ht Hi Hx) in *.
    destruct Ho; [rewrite Ha by lia; reflexivity|rewrite Hb by lia; apply andb_false_r].
Qed.

Theorem loc_rows : forall divs parts lo hi,
  truthful divs parts -> parts <> [] -> slice_ok lo hi ->
  concat (loc_parts divs parts lo hi) = filter (in_slice lo hi) (concat parts).
Proof. intros divs parts lo hi Ht Hne _. apply loc_rows_gen; assumption. Qed.

Theorem loc_reversed_empty : forall divs parts l h,
  truthful divs parts -> parts <> [] -> (h < l)%Z ->
  concat (loc_parts divs parts (Some l) (Some h)) = [].
Proof.
  intros divs parts l h Ht Hne Hlt. rewrite loc_rows_gen by assumption.
  apply filter_false. intros x _. unfold in_slice, ge_lo, le_hi. lia.
Qed.

(* The k + 1 consecutive partitions s .. s + k of a truthful collection, each thinned out, keep the divisions between
   them; the two outer divisions may be replaced by any bounds of the outer partitions' rows that keep the vector sorted. *)
Section Window.
  Variables (divs : list Z) (parts : list (list Z)) (s k : nat) (ds de : Z).
  Hypothesis Ht : truthful divs parts.
  Hypothesis Hk : s + k < length parts.

  Let D := ds :: firstn k (skipn (S s) divs) ++ [de].

  Lemma window_mid_length : length (firstn k (skipn (S s) divs)) = k.
  Proof. pose proof (truthful_length divs parts Ht). rewrite firstn_length, skipn_length. lia. Qed.

  Lemma window_length : length D = k + 2.
  Proof. unfold D. cbn [length]. rewrite app_length, window_mid_length. cbn [length]. lia. Qed.

  Lemma window_mid : forall j, 0 < j <= k -> nth j D 0%Z = nth (s + j) divs 0%Z.
  Proof.
    intros [|j] Hj; [lia|]. unfold D. cbn [nth].
    rewrite app_nth1 by (rewrite window_mid_length; lia).
    rewrite nth_firstn_lt by lia. rewrite nth_skipn_add. f_equal. lia.
  Qed.

  Lemma window_mid_S : forall j, j < k -> nth (S j) D 0%Z = nth (S (s + j)) divs 0%Z.
  Proof. intros j Hj. rewrite window_mid by lia. f_equal. lia. Qed.

  Lemma window_last : nth (S k) D 0%Z = de.
  Proof.
    unfold D. cbn [nth]. rewrite app_nth2 by (rewrite window_mid_length; lia).
    rewrite window_mid_length, Nat.sub_diag. reflexivity.
  Qed.

  Lemma truthful_window : forall parts',
    length parts' = k + 1 ->
    (forall i x, In x (nth i parts' []) ->
       In x (nth (s + i) parts []) /\ (i = 0 -> (ds <= x)%Z) /\ (i = k -> (x <= de)%Z)) ->
    (k = 0 -> (ds <= de)%Z) ->
    (0 < k -> (ds <= nth (S s) divs 0 /\ nth (s + k) divs 0 <= de)%Z) ->
    truthful D parts'.
  Proof.
    intros parts' Hlen Hin Hone Hends. destruct Ht as (Hl & Hs & Hr).
    assert (E : (nth 0 D 0 <= nth 1 D 0 /\ nth k D 0 <= de)%Z).
    { destruct (Nat.eq_dec k 0) as [Hk0|Hk0].
      - unfold D. rewrite Hk0. cbn. lia.
      - rewrite (window_mid 1), (window_mid k), Nat.add_1_r by lia. apply Hends. lia. }
    split; [|split].
    - rewrite window_length, Hlen. lia.
    - intros j Hj. rewrite window_length in Hj.
      destruct (Nat.eq_dec j 0) as [->|J0]; [apply E|].
      destruct (Nat.eq_dec j k) as [->|Jk]; [rewrite window_last; apply E|].
      rewrite window_mid, window_mid_S by lia. apply Hs. lia.
    - intros i x Hi Hx. rewrite Hlen in *. destruct (Hin i x Hx) as (Hp & H0 & H1).
      destruct (Hr (s + i) x ltac:(lia) Hp) as [Hlo Hhi]. split.
      + destruct (Nat.eq_dec i 0) as [->|I0]; [apply H0; reflexivity|]. rewrite window_mid by lia. exact Hlo.
      + destruct (Nat.eq_dec i k) as [->|Ik].
        * right. split; [lia|]. rewrite window_last. apply H1. reflexivity.
        * left. rewrite window_mid_S by lia. lia.
  Qed.
End Window.

(* with lo absent the first division of several is that of divs, which istart does not exceed; with hi absent the last
   is that of divs, below which istop does not fall: either way the outer divisions are a max and a min *)
Lemma div_start_max : forall divs lo hi,
  match lo with
  | None => hd 0%Z divs
  | Some _ => Z.max (ls_istart divs lo hi) (nth (ls_start divs lo) divs 0%Z)
  end
  = Z.max (ls_istart divs lo hi) (nth (ls_start divs lo) divs 0%Z).
Proof. intros divs [l|] hi; [reflexivity|]. simpl. rewrite hd_nth0. destruct hi; lia. Qed.

Lemma div_stop_min : forall divs lo hi, 2 <= length divs ->
  match hi with
  | None => last divs 0%Z
  | Some _ => Z.min (ls_istop divs lo hi) (nth (S (ls_stop divs lo hi)) divs 0%Z)
  end
  = Z.min (ls_istop divs lo hi) (nth (S (ls_stop divs lo hi)) divs 0%Z).
Proof.
  intros divs lo [h|] Hl; [reflexivity|]. simpl. rewrite last_nth_S by exact Hl. destruct lo; lia.
Qed.

(* a label that passes the lower test of the slice and is not below the division in front of the start partition is not
   below that max; one that passes the upper test and is not above the division after the stop partition is not above
   that min *)
Lemma div_start_le : forall divs lo hi x,
  ge_lo lo x = true -> (nth (ls_start divs lo) divs 0 <= x)%Z ->
  (Z.max (ls_istart divs lo hi) (nth (ls_start divs lo) divs 0) <= x)%Z.
Proof. intros divs [l|] hi x; simpl; [lia|]. rewrite hd_nth0. destruct hi; lia. Qed.

Lemma le_div_stop : forall divs lo hi x, 2 <= length divs ->
  le_hi hi x = true -> (x <= nth (S (ls_stop divs lo hi)) divs 0)%Z ->
  (x <= Z.min (ls_istop divs lo hi) (nth (S (ls_stop divs lo hi)) divs 0))%Z.
Proof.
  intros divs lo [h|] x Hl; simpl; [lia|]. rewrite last_nth_S by exact Hl. destruct lo; lia.
Qed.

(* when several partitions are touched, the division after the start partition passes the lower test (part_of_upper),
   the division in front of the stop partition the upper one (part_of_lower) *)
Lemma ge_lo_next : forall divs lo hi, sortedZ divs -> ls_start divs lo < ls_stop divs lo hi ->
  ge_lo lo (nth (S (ls_start divs lo)) divs 0%Z) = true.
Proof.
  intros divs [l|] hi Hs H; [|reflexivity]. destruct (stop_bounds divs (Some l) hi) as [_ Hb].
  pose proof (part_of_upper divs l Hs). simpl in *. lia.
Qed.

Lemma le_hi_prev : forall divs lo hi, ls_start divs lo < ls_stop divs lo hi ->
  le_hi hi (nth (ls_stop divs lo hi) divs 0%Z) = true.
Proof.
  intros divs lo [h|] H; [|reflexivity]. cbn [ls_stop le_hi] in *. rewrite Nat.max_l in * by lia.
  apply Z.leb_le, part_of_lower. lia.
Qed.

(* `slice_ok lo hi` is not needed here either *)
Theorem loc_truthful_gen : forall divs parts lo hi,
  truthful divs parts -> parts <> [] ->
  truthful (loc_divisions divs lo hi) (loc_parts divs parts lo hi).
Proof.
  intros divs parts lo hi Ht Hne.
  destruct (truthful_lengths divs parts Ht Hne) as [Hl Hn]. pose proof (proj1 (proj2 Ht)) as Hs.
  destruct (stop_bounds divs lo hi) as [Hb1 Hb2].
  pose proof (loc_parts_length divs parts lo hi) as Hlen. pose proof (loc_parts_In divs parts lo hi) as Hin.
  unfold loc_divisions. rewrite div_start_max, div_stop_min by lia.
  set (s := ls_start divs lo) in *. set (e := ls_stop divs lo hi) in *.
  assert (H2 : 2 <= length divs) by lia. assert (He : e < length parts) by lia. assert (Ese : s + (e - s) = e) by lia.
  (* a row of output partition i is a row of input partition s + i; the first output partition is cut at lo, so its
     rows lie at or above the first new division, the last at hi, so its rows lie at or below the last *)
  assert (Hrow : forall i x, In x (nth i (loc_parts divs parts lo hi) []) ->
     In x (nth (s + i) parts []) /\
     (i = 0 -> (Z.max (ls_istart divs lo hi) (nth s divs 0) <= x)%Z) /\
     (i = e - s -> (x <= Z.min (ls_istop divs lo hi) (nth (S e) divs 0))%Z)).
  { intros i x Hx. destruct (Hin i x Hx) as (_ & Hp & Hlo & Hhi).
    split; [exact Hp|]. split; intros ->.
    - rewrite Nat.add_0_r in Hp.
      pose proof (row_ge divs parts s s x Ht (Nat.le_refl s) (Nat.le_lt_trans _ _ _ Hb1 He) Hp) as Hge.
      apply div_start_le; [apply Hlo; reflexivity|exact Hge].
    - rewrite Ese in Hp, Hhi.
      pose proof (row_le divs parts e (S e) x Ht (Nat.lt_succ_diag_r e) He Hp) as Hle.
      apply le_div_stop; [exact H2|apply Hhi; reflexivity|exact Hle]. }
  destruct (Nat.eqb_spec e s) as [E|E].
  - (* one touched partition, cut at both ends: [istart; max istart istop] *)
    apply (truthful_window divs parts s 0 _ _ Ht).
    + (* partition s exists *) lia.
    + (* one output partition *) lia.
    + (* its rows *) intros i x Hx. destruct (Hrow i x Hx) as (Hp & H0 & H1). split; [exact Hp|]. split; intros ->; lia.
    + (* the two divisions are ordered *) lia.
    + (* no inner division *) lia.
  - (* several: the first division raised to lo, the last lowered to hi *)
    apply (truthful_window divs parts s (e - s) _ _ Ht).
    + (* partition e exists *) lia.
    + exact Hlen.
    + exact Hrow.
    + (* not the one-partition case *) lia.
    + (* the vector stays sorted at both ends: the division after the start partition is bounded below like a row of
         the first output partition, the division in front of the stop partition above like a row of the last *)
      intros _. rewrite Ese. assert (Hse : s < e) by lia.
      pose proof (Hs s ltac:(lia)) as Hs1. pose proof (Hs e ltac:(lia)) as Hs2. split.
      * apply div_start_le; [exact (ge_lo_next divs lo hi Hs Hse)|exact Hs1].
      * apply le_div_stop; [exact H2|exact (le_hi_prev divs lo hi Hse)|exact Hs2].
Qed.

Theorem loc_truthful : forall divs parts lo hi,
  truthful divs parts -> parts <> [] -> slice_ok lo hi ->
  truthful (loc_divisions divs lo hi) (loc_parts divs parts lo hi).
Proof. intros divs parts lo hi Ht Hne _. apply loc_truthful_gen; assumption. Qed.

(* output partition i comes from input partition start + i (D42) *)
Theorem loc_partition_source : forall divs parts lo hi i x,
  i <= ls_stop divs lo hi - ls_start divs lo ->
  In x (nth i (loc_parts divs parts lo hi) []) -> In x (nth (ls_start divs lo + i) parts []).
Proof. intros divs parts lo hi i x _ Hx. apply loc_parts_In in Hx. apply Hx. Qed.

Theorem loc_unshifted_refuted : exists divs parts lo hi,
  truthful divs parts /\ slice_ok lo hi /\ loc_parts_unshifted divs parts lo hi <> loc_parts divs parts lo hi.
Proof.
  exists [0; 10; 20; 30]%Z, [[0; 5]; [10; 15]; [20; 25]]%Z, (Some 12%Z), (Some 22%Z).
  split; [apply truthfulb_spec; vm_compute; reflexivity|].
  split; [simpl; lia|].
  vm_compute. discriminate.
Qed.

(* index arithmetic on divisions (Binop._divisions, fix D69) *)
Theorem map_increasing_truthful : forall f divs parts,
  strictly_increasing_fn f -> truthful divs parts -> truthful (map f divs) (map_parts f parts).
Proof.
  intros f divs parts Hf (Hl & Hs & Hr).
  assert (Hnd : forall a b, (a <= b)%Z -> (f a <= f b)%Z).
  { intros a b Hab. destruct (Z.eq_dec a b) as [->|Hne]; [lia|]. specialize (Hf a b). lia. }
  assert (Hn : forall i, i < length divs -> nth i (map f divs) 0%Z = f (nth i divs 0%Z))
    by (intros i; apply nth_map_lt).
  unfold truthful, map_parts. rewrite !map_length. split; [exact Hl|]. split.
  - intros i Hi. rewrite map_length in Hi. rewrite !Hn by lia. apply Hnd, Hs, Hi.
  - intros i y Hi Hy. rewrite (nth_map_lt [] (map f) parts i []) in Hy by exact Hi.
    apply in_map_iff in Hy. destruct Hy as (x & <- & Hx).
    destruct (Hr i x Hi Hx) as [H1 H2]. unfold row_ok. rewrite !Hn by lia.
    split; [apply Hnd, H1|]. destruct H2 as [H2|[H2 H3]].
    + left. apply Hf, H2.
    + right. split; [exact H2|apply Hnd, H3].
Qed.

Theorem map_nondecreasing_refuted : exists f divs parts,
  nondecreasing_fn f /\ truthful divs parts /\ ~ truthful (map f divs) (map_parts f parts).
Proof.
  exists (fun x => (x / 7)%Z), [0; 8; 14]%Z, [[0; 7]; [8; 14]]%Z.
  split; [intros x y Hxy; apply Z.div_le_mono; lia|].
  split; [apply truthfulb_spec; vm_compute; reflexivity|].
  apply truthfulb_false. vm_compute. reflexivity.
Qed.

Theorem map_nonmonotone_refuted : exists (f : Z -> Z) divs parts,
  truthful divs parts /\ ~ truthful (map f divs) (map_parts f parts).
Proof.
  exists (fun x => (x mod 30)%Z), [0; 20; 40]%Z, [[0; 10]; [25; 35]]%Z.
  split; [apply truthfulb_spec; vm_compute; reflexivity|].
  apply truthfulb_false. vm_compute. reflexivity.
Qed.

Print Assumptions part_of_bound.
Print Assumptions part_of_lower.
Print Assumptions part_of_upper.
Print Assumptions loc_rows.
Print Assumptions loc_reversed_empty.
Print Assumptions loc_truthful.
Print Assumptions loc_partition_source.
Print Assumptions loc_unshifted_refuted.
Print Assumptions map_increasing_truthful.
Print Assumptions map_nondecreasing_refuted.
Print Assumptions map_nonmonotone_refuted.
Print Assumptions loc_rows_gen.
Print Assumptions loc_truthful_gen.

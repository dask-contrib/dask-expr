(* PropC06.v -- property C06: reported partition structure (npartitions, divisions, lengths) is truthful.
   `truthful divs parts` (Divisions.v) is the property's own statement: npartitions+1 sorted entries and every
   computed partition i holds only index values in [divs_i, divs_{i+1}) (last partition: closed).
   Each theorem says: if the input's report is truthful then the report derived by the operator's formula is truthful
   for the partitions the operator computes -- for all divisions, partitions, selections, steps and boundaries.
   The formulas are tied to the real _divisions() methods by the T-LAYER "divisions" correspondence of the C06 check.
   The *_refuted theorems refute what the unfixed code did (defects D8, D10, D20, D30, D35, D36, D69), seeded changes
   (C06_a, C06_b, C10_a / C02_b), a variant the code does not use (C06_align_nodedup_refuted), and show that a hypothesis
   is needed (C06_set_index_below_refuted, C06_index_map_nondecreasing_refuted). *)
From DX Require Import Base Plan PlanProofs Repart RepartCount Divisions DivisionsProofs DivisionsExtra ClassTableDivisions ClassTableLengthFlags.
From DX Require Import MinMax MinMaxProofs PySeq GeneratedSource SourceChecks Loc LocProofs LocList LocListProofs SetIndex SetIndexProofs.
Local Open Scope nat_scope.

(* the executable test used by the harness on computed partitions means exactly the property *)
Theorem C06_truthfulb_spec : forall divs parts, truthfulb divs parts = true <-> truthful divs parts.
Proof. exact truthfulb_spec. Qed.
Print Assumptions C06_truthfulb_spec.

(* partitions[...] / partition-filtered sources *)
Theorem C06_partitions_truthful : forall divs parts sel d',
  truthful divs parts -> (forall p, In p sel -> p < length parts) -> sel <> [] ->
  partitions_divisions divs sel = Some d' -> truthful d' (select_parts parts sel).
Proof. exact partitions_truthful. Qed.
Print Assumptions C06_partitions_truthful.

Theorem C06_partitions_known_iff_increasing : forall divs sel,
  (exists d', partitions_divisions divs sel = Some d') <-> sinc sel.
Proof. exact partitions_divisions_known_iff. Qed.
Print Assumptions C06_partitions_known_iff_increasing.

Theorem C06_partitions_unsorted_refuted : exists divs parts sel,
  truthful divs parts /\ (forall p, In p sel -> p < length parts) /\ sel <> [] /\
  ~ truthful (partitions_divisions_old divs sel) (select_parts parts sel).
Proof. exact partitions_unsorted_refuted. Qed.
Print Assumptions C06_partitions_unsorted_refuted.

(* partitionwise operators report their input's divisions: right iff it is the input they really read *)
Theorem C06_partitionwise_keeps_divisions : forall divs parts parts',
  truthful divs parts -> length parts' = length parts ->
  (forall i x, i < length parts -> In x (nth i parts' []) -> In x (nth i parts [])) ->
  truthful divs parts'.
Proof. exact truthful_subset. Qed.
Print Assumptions C06_partitionwise_keeps_divisions.

Theorem C06_derived_of_selection_truthful : forall divs parts sel d' parts',
  truthful divs parts -> (forall p, In p sel -> p < length parts) -> sel <> [] ->
  partitions_divisions divs sel = Some d' -> length parts' = length sel ->
  (forall i x, i < length sel -> In x (nth i parts' []) -> In x (nth i (select_parts parts sel) [])) ->
  truthful d' parts'.
Proof. exact derived_of_selection_truthful. Qed.
Print Assumptions C06_derived_of_selection_truthful.

Theorem C06_raw_divisions_of_selection_refuted : forall divs parts sel,
  truthful divs parts -> length sel <> length parts -> ~ truthful divs (select_parts parts sel).
Proof. exact raw_divisions_of_selection_refuted. Qed.
Print Assumptions C06_raw_divisions_of_selection_refuted.

Theorem C06_longer_divisions_refuted : forall divs divs' parts,
  truthful divs parts -> length divs' <> length divs -> ~ truthful divs' parts.
Proof. exact longer_divisions_refuted. Qed.
Print Assumptions C06_longer_divisions_refuted.

(* T-GEN: no method in the current source reads an operand's raw _divisions() outside the reviewed sites *)
Theorem C06_no_raw_operand_divisions : raw_divisions_b = true.
Proof. exact raw_divisions_reviewed_ok. Qed.
Print Assumptions C06_no_raw_operand_divisions.

(* fused multi-file reads *)
Theorem C06_fused_truthful : forall divs parts parts_sel step,
  truthful divs parts -> strictly_increasingb parts_sel = true ->
  (forall p, In p parts_sel -> p < length parts) -> 1 <= step -> parts_sel <> [] ->
  truthful (fused_divisions divs (fusion_buckets parts_sel step)) (fused_parts parts (fusion_buckets parts_sel step)).
Proof. exact fused_truthful. Qed.
Print Assumptions C06_fused_truthful.

Theorem C06_fused_old_refuted : exists divs parts parts_sel step,
  truthful divs parts /\ strictly_increasingb parts_sel = true /\
  (forall p, In p parts_sel -> p < length parts) /\ 1 <= step /\ parts_sel <> [] /\
  ~ truthful (fused_divisions_old divs (fusion_buckets parts_sel step)) (fused_parts parts (fusion_buckets parts_sel step)).
Proof. exact fused_divisions_old_refuted. Qed.
Print Assumptions C06_fused_old_refuted.

(* repartition to fewer partitions *)
Theorem C06_fewer_truthful : forall divs parts bs,
  truthful divs parts -> DivisionsProofs.chain bs (length parts) -> interior_below bs (length parts) ->
  truthful (fewer_divisions divs bs) (fewer_parts parts bs).
Proof. exact fewer_truthful. Qed.
Print Assumptions C06_fewer_truthful.

Theorem C06_fewer_trailing_empty_refuted : exists divs parts bs,
  truthful divs parts /\ DivisionsProofs.chain bs (length parts) /\ ~ truthful (fewer_divisions divs bs) (fewer_parts parts bs).
Proof. exact fewer_trailing_empty_refuted. Qed.
Print Assumptions C06_fewer_trailing_empty_refuted.

(* head / tail *)
Theorem C06_head_truthful : forall divs parts k nrows,
  truthful divs parts -> k <= length parts -> truthful (head_divisions divs k) (head_parts parts k nrows).
Proof. exact head_truthful. Qed.
Print Assumptions C06_head_truthful.

Theorem C06_blockwise_head_truthful : forall divs parts k nrows,
  truthful divs parts -> k <= length parts -> truthful (bhead_divisions divs k) (bhead_parts parts k nrows).
Proof. exact bhead_truthful. Qed.
Print Assumptions C06_blockwise_head_truthful.

Theorem C06_tail_truthful : forall divs parts nrows,
  truthful divs parts -> parts <> [] -> truthful (tail_divisions divs) (tail_parts parts nrows).
Proof. exact tail_truthful. Qed.
Print Assumptions C06_tail_truthful.

(* concat along the rows *)
Theorem C06_concat_truthful : forall ds pss R,
  Forall2 truthful ds pss -> concat_divisions ds = Some R -> truthful R (concat_parts pss).
Proof. exact concat_truthful_n. Qed.
Print Assumptions C06_concat_truthful.

Theorem C06_concat_touching_refuted : exists A pa B pb R,
  truthful A pa /\ truthful B pb /\ last A 0%Z = hd 0%Z B /\
  concat_divisions2_touching A B = Some R /\ ~ truthful R (pa ++ pb).
Proof. exact concat_touching_refuted. Qed.
Print Assumptions C06_concat_touching_refuted.

(* len() pushed through length-preserving operators: every accepted step keeps the value *)
Theorem C06_len_pushdown_sound : forall parent result, rule_ok parent result = true ->
  forall rho o, den rho parent = Some o -> den rho result = Some o.
Proof. exact rule_ok_sound. Qed.
Print Assumptions C06_len_pushdown_sound.

(* count-based repartitioning reports exactly the number of partitions it computes *)
Theorem C06_repartition_counts : forall (row : Type) (P : list (list row)) (bs : list nat),
  RepartCount.chain 0 bs (length P) -> length (exec_fewer (0 :: bs) P) = length bs.
Proof. intros. apply fewer_count. Qed.
Print Assumptions C06_repartition_counts.

(* T-GEN: every class of the current source that lets len() be answered through it (_is_length_preserving) is
   element-wise or on the reviewed list *)
Theorem C06_length_flags_reviewed : length_flags_b = true.
Proof. exact length_flags_reviewed. Qed.
Print Assumptions C06_length_flags_reviewed.

(* T-SRC: the same theorems about the method bodies translated from the current source (GeneratedSource.v is rewritten
   from /repo on every run by harness/gen_source.py; SourceChecks.v proves each translated body equal to the model) *)
Theorem C06_src_partitions_truthful : forall divs parts (sel : list nat) d',
  truthful divs parts -> (forall p, In p sel -> p < length parts) -> sel <> [] ->
  src_Partitions_divisions divs (zs sel) = Known d' -> truthful d' (select_parts parts sel).
Proof. exact src_partitions_truthful. Qed.
Print Assumptions C06_src_partitions_truthful.

Theorem C06_src_partitions_filtered_truthful : forall full parts (sel : list nat) d',
  truthful full parts -> (forall p, In p sel -> p < length parts) -> sel <> [] ->
  src_PartitionsFiltered_divisions full true (zs sel) = Known d' -> truthful d' (select_parts parts sel).
Proof. exact src_partitions_filtered_truthful. Qed.
Print Assumptions C06_src_partitions_filtered_truthful.

Theorem C06_src_partitions_unknown_count : forall divs (sel : list nat) n,
  src_Partitions_divisions divs (zs sel) = Unknown n -> n = (Z.of_nat (length sel) + 1)%Z.
Proof. exact src_partitions_unknown_count. Qed.
Print Assumptions C06_src_partitions_unknown_count.

Theorem C06_src_fused_truthful : forall divs seldivs parts parts_sel step d,
  truthful divs parts -> strictly_increasingb parts_sel = true ->
  (forall p, In p parts_sel -> p < length parts) -> 1 <= step -> parts_sel <> [] ->
  src_FusedIO_divisions divs seldivs (map zs (fusion_buckets parts_sel step)) = Known d ->
  truthful d (fused_parts parts (fusion_buckets parts_sel step)).
Proof. exact src_fused_truthful. Qed.
Print Assumptions C06_src_fused_truthful.

Theorem C06_src_fewer_truthful : forall divs parts bs,
  truthful divs parts -> DivisionsProofs.chain bs (length parts) -> interior_below bs (length parts) ->
  truthful (src_RepartitionToFewer_divisions divs (zs bs)) (fewer_parts parts bs).
Proof. exact src_fewer_truthful. Qed.
Print Assumptions C06_src_fewer_truthful.

Theorem C06_src_head_truthful : forall divs parts k nrows,
  truthful divs parts -> k <= length parts ->
  truthful (src_Head_divisions divs (Z.of_nat k)) (head_parts parts k nrows).
Proof. exact src_head_truthful. Qed.
Print Assumptions C06_src_head_truthful.

Theorem C06_src_blockwise_head_truthful : forall divs parts (sel : list Z) nrows,
  truthful divs parts -> length sel <= length parts ->
  truthful (src_BlockwiseHead_divisions divs sel) (bhead_parts parts (length sel) nrows).
Proof. exact src_blockwise_head_truthful. Qed.
Print Assumptions C06_src_blockwise_head_truthful.

Theorem C06_src_tail_truthful : forall divs parts nrows,
  truthful divs parts -> parts <> [] -> truthful (src_Tail_divisions divs) (tail_parts parts nrows).
Proof. exact src_tail_truthful. Qed.
Print Assumptions C06_src_tail_truthful.

Theorem C06_src_concat_truthful : forall ds pss,
  Forall2 truthful ds pss -> ds <> [] -> src_Concat_monotonic_divisions ds true = true ->
  truthful (src_Concat_divisions_monotonic ds) (concat_parts pss).
Proof. exact src_concat_truthful. Qed.
Print Assumptions C06_src_concat_truthful.

(* divisions derived from (min, max) statistics: presorted set_index / sort_values, parquet statistics *)
Theorem C06_presorted_truthful : forall l parts d,
  stats_ok l parts -> wf_stats l -> presorted_divisions l = Some d -> truthful d parts.
Proof. exact presorted_truthful. Qed.
Print Assumptions C06_presorted_truthful.

Theorem C06_presorted_touching_refuted : exists l parts d,
  stats_ok l parts /\ wf_stats l /\ presorted_divisions_touching l = Some d /\ ~ truthful d parts.
Proof. exact presorted_touching_refuted. Qed.
Print Assumptions C06_presorted_touching_refuted.

Theorem C06_parquet_statistics_truthful : forall l parts d p,
  stats_ok l parts -> wf_stats l -> stats_divisions l = Some (d, p) ->
  truthful d (reindex parts p []) /\ Permutation.Permutation p (seq 0 (length parts)).
Proof. exact stats_truthful. Qed.
Print Assumptions C06_parquet_statistics_truthful.

Theorem C06_parquet_statistics_old_refuted : exists l parts,
  stats_ok l parts /\ wf_stats l /\
  ~ truthful (fst (stats_divisions_old l)) (reindex parts (snd (stats_divisions_old l)) []).
Proof. exact stats_old_refuted. Qed.
Print Assumptions C06_parquet_statistics_old_refuted.

(* label slices df.loc[lo:hi] and index arithmetic *)
Theorem C06_loc_slice_truthful : forall divs parts lo hi,
  truthful divs parts -> parts <> [] -> slice_ok lo hi ->
  truthful (loc_divisions divs lo hi) (loc_parts divs parts lo hi).
Proof. exact loc_truthful. Qed.
Print Assumptions C06_loc_slice_truthful.

Theorem C06_index_map_increasing_truthful : forall f divs parts,
  strictly_increasing_fn f -> truthful divs parts -> truthful (map f divs) (map_parts f parts).
Proof. exact map_increasing_truthful. Qed.
Print Assumptions C06_index_map_increasing_truthful.

Theorem C06_index_map_nondecreasing_refuted : exists f divs parts,
  nondecreasing_fn f /\ truthful divs parts /\ ~ truthful (map f divs) (map_parts f parts).
Proof. exact map_nondecreasing_refuted. Qed.
Print Assumptions C06_index_map_nondecreasing_refuted.

Theorem C06_index_map_nonmonotone_refuted : exists (f : Z -> Z) divs parts,
  truthful divs parts /\ ~ truthful (map f divs) (map_parts f parts).
Proof. exact map_nonmonotone_refuted. Qed.
Print Assumptions C06_index_map_nonmonotone_refuted.

(* label lists df.loc[[l1, l2, ...]] *)
Theorem C06_loc_list_truthful : forall divs parts labels,
  truthful divs parts -> parts <> [] -> labels <> [] -> labels_in_range divs labels ->
  truthful (ll_divisions divs labels) (ll_parts divs parts labels).
Proof. exact ll_truthful. Qed.
Print Assumptions C06_loc_list_truthful.

Theorem C06_loc_list_unsorted_refuted : exists divs parts labels,
  truthful divs parts /\ labels_in_range divs labels /\
  ~ truthful (ll_divisions_unsorted divs labels) (ll_parts divs parts labels).
Proof. exact ll_unsorted_refuted. Qed.
Print Assumptions C06_loc_list_unsorted_refuted.

(* alignment (calc_divisions_for_align): the divisions reported for an index-aligned operation between differently partitioned
   operands are truthful for every operand repartitioned to them (ANY partitions) and for the partition-wise result of every
   index-local operation; the (min, max) reported when every operand has one partition is truthful; without unique() the
   vector would be invalid and declare partitions for empty ranges.  Tie: T-LAYER align_layer. *)
From DX Require Import Align AlignProofs.
Theorem C06_align_truthful : forall (row : Type) (idx : row -> Z) ds (P : list (list row)),
  ds <> [] -> Forall (fun d => (2 <= length d)%nat) ds -> Forall Repart.sortedZ ds ->
  Divisions.truthful (align_divisions ds) (map (map idx) (spec_plan idx (align_divisions ds) P)).
Proof. exact align_truthful. Qed.
Print Assumptions C06_align_truthful.

Theorem C06_aligned_result_truthful : forall (row : Type) (idx : row -> Z) (out : Type)
    (f : list row -> list row -> list out) (key : out -> Z),
  (forall (p : Z -> bool) A B,
      filter (fun o => p (key o)) (f A B) = f (filter (fun r => p (idx r)) A) (filter (fun r => p (idx r)) B)) ->
  forall ds a1 a2 (P1 P2 : list (list row)),
  ds <> [] -> Forall (fun d => (2 <= length d)%nat) ds -> Forall Repart.sortedZ ds ->
  In a1 ds -> In a2 ds -> respects idx a1 P1 -> respects idx a2 P2 ->
  Divisions.truthful (align_divisions ds)
    (map (map key) (blockwise2 f (spec_plan idx (align_divisions ds) P1) (spec_plan idx (align_divisions ds) P2))).
Proof. exact aligned_result_truthful. Qed.
Print Assumptions C06_aligned_result_truthful.

Theorem C06_align_single_truthful : forall (ds : list (list Z)) (Q : list Z),
  Forall (fun d => exists lo hi, d = [lo; hi] /\ (lo <= hi)%Z) ds ->
  Forall (fun x => exists d, In d ds /\ (nthZ d 0 <= x <= lastZ d)%Z) Q ->
  Divisions.truthful (align_single ds) [Q].
Proof. exact align_single_truthful. Qed.
Print Assumptions C06_align_single_truthful.

Theorem C06_align_nodedup_refuted :
  exists ds : list (list Z),
    ds <> [] /\ Forall (fun d => (2 <= length d)%nat) ds /\ Forall Repart.sortedZ ds /\
    Forall (fun d => strict_incr d = true) ds /\
    valid_divs (align_divisions_nodedup ds) = false /\
    (exists j, (S (S j) < length (align_divisions_nodedup ds))%nat /\
               nthZ (align_divisions_nodedup ds) j = nthZ (align_divisions_nodedup ds) (S j) /\
               forall v, in_target (align_divisions_nodedup ds) j v = false) /\
    valid_divs (align_divisions ds) = true.
Proof. exact align_nodedup_refuted. Qed.
Print Assumptions C06_align_nodedup_refuted.

(* set_index / sort_values on divisions: rows are routed by `set_partitions_pre` (SetIndex.v, tied by T-LAYER
   `setindex_layer`); the reported divisions are truthful for the shuffled partitions whenever the keys lie inside the
   closed range of the divisions (divisions computed from the data have min / max as their end points), every row is in
   exactly one output partition, and the range hypothesis cannot be dropped. *)
Theorem C06_set_index_truthful : forall divs rows, Divisions.sortedZ divs -> (2 <= length divs)%nat ->
  keys_within divs rows -> Divisions.truthful divs (sp_parts divs rows).
Proof. exact set_index_truthful. Qed.
Print Assumptions C06_set_index_truthful.

Theorem C06_set_index_partition_exact : forall divs rows i v, (i < length divs - 1)%nat ->
  (In v (nth i (sp_parts divs rows) []) <-> In v rows /\ sp_part divs v = i).
Proof. exact set_index_partition_exact. Qed.
Print Assumptions C06_set_index_partition_exact.

Theorem C06_set_index_below_refuted : exists divs rows, Divisions.sortedZ divs /\ (2 <= length divs)%nat /\
  ~ Divisions.truthful divs (sp_parts divs rows).
Proof. exact set_index_below_refuted. Qed.
Print Assumptions C06_set_index_below_refuted.

Theorem C06_set_index_row_count : forall divs rows, (2 <= length divs)%nat ->
  length (concat (sp_parts divs rows)) = length rows.
Proof. exact set_index_row_count. Qed.
Print Assumptions C06_set_index_row_count.

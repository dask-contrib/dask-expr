(* NestedHead.v -- head of a head / tail of a tail (Head._simplify_down / Tail._simplify_down merge the two nodes; the
   helper _nested_selection is translated from the source into GeneratedSource.v). *)
From Coq Require Import ZArith List Lia.
Import ListNotations.

(* head(n, npartitions=k): the first n rows of the first k partitions *)
Definition head_rows {A : Type} (parts : list (list A)) (k n : nat) : list A := firstn n (concat (firstn k parts)).
(* head(-m): everything but the last m rows; tail(n): the last n rows; tail(-m): everything but the first m rows *)
Definition head_neg {A : Type} (l : list A) (m : nat) : list A := firstn (length l - m) l.
Definition tail_rows {A : Type} (l : list A) (n : nat) : list A := skipn (length l - n) l.
Definition tail_neg {A : Type} (l : list A) (m : nat) : list A := skipn m l.

Lemma skipn_skipn' : forall (A : Type) (x y : nat) (l : list A), skipn x (skipn y l) = skipn (x + y) l.
Proof.
  intros A x y. induction y as [|y IH]; intros l; [rewrite Nat.add_0_r; reflexivity|].
  destruct l as [|a l]; [rewrite !skipn_nil; reflexivity|]. rewrite Nat.add_succ_r. cbn [skipn]. apply IH.
Qed.

(* the outer head works on the ONE partition the inner head produced: its own npartitions is irrelevant *)
Theorem nested_head_merge : forall (A : Type) (parts : list (list A)) k n1 n2,
  firstn n2 (head_rows parts k n1) = head_rows parts k (Nat.min n2 n1).
Proof. intros. unfold head_rows. apply firstn_firstn. Qed.

(* merging the partition counts with min as well (seed C11_b) is wrong *)
Theorem nested_head_min_npartitions_refuted : exists (parts : list (list nat)) k1 k2 n1 n2,
  firstn n2 (head_rows parts k1 n1) <> head_rows parts (Nat.min k2 k1) (Nat.min n2 n1).
Proof. exists [[1;2];[3;4];[5;6]], 3, 1, 6, 5. vm_compute. discriminate. Qed.

Theorem nested_head_neg : forall (A : Type) (l : list A) m1 m2,
  head_neg (head_neg l m1) m2 = head_neg l (m2 + m1).
Proof.
  intros. unfold head_neg. rewrite firstn_length. rewrite firstn_firstn. f_equal. lia.
Qed.

Theorem nested_tail_merge : forall (A : Type) (l : list A) n1 n2,
  tail_rows (tail_rows l n1) n2 = tail_rows l (Nat.min n2 n1).
Proof.
  intros. unfold tail_rows. rewrite skipn_length. rewrite skipn_skipn'. f_equal. lia.
Qed.

Theorem nested_tail_neg : forall (A : Type) (l : list A) m1 m2,
  tail_neg (tail_neg l m1) m2 = tail_neg l (m2 + m1).
Proof. intros. unfold tail_neg. apply skipn_skipn'. Qed.

(* a negative selection after a non-negative one depends on the length: no single n works (the pair is left nested) *)
Theorem nested_head_mixed_refuted : forall n : nat, exists l1 l2 : list nat,
  (head_neg (firstn 5 l1) 2 <> firstn n l1) \/ (head_neg (firstn 5 l2) 2 <> firstn n l2).
Proof.
  intros n. exists [1;2;3;4;5;6;7], [1;2;3]. destruct n as [|[|[|[|n]]]]; vm_compute; try (left; discriminate); right; discriminate.
Qed.

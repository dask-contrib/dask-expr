(* PropC14.v -- property C14: blockwise fusion only changes task granularity.  Statements only. *)
From DX Require Import Fusion FusionProofs.

(* For EVERY fused group that satisfies valid_group (what the group-discovery pass must establish; every
   real group met by the harness is certified by the extracted valid_group), every nesting depth, any DAG
   shape inside the group, shared and broadcast (single-partition) members and dependencies, and EVERY
   partition index: the sub-graph built by Fused._task, executed with dask.core.get semantics, computes
   exactly the partition that the unfused root expression computes. *)
Theorem C14_fused_task_eq : forall (V : Type) (fn_sem : nat -> list V -> V) (lit : nat -> V) (ext : nat -> nat -> V)
    self_name group deps index,
  valid_group group deps = true -> self_fresh self_name group = true ->
  index < npart_of_root group ->
  exists v,
    eval_member fn_sem lit ext group (root_name group) index (eval_fuel group) = Some v /\
    exec_fused fn_sem lit (fused_task self_name group deps index)
               (dep_values ext (snd (fused_task self_name group deps index))) (exec_fuel group) = Some v.
Proof. exact fused_task_eq. Qed.
Print Assumptions C14_fused_task_eq.

(* the statement is sensitive to the order in which Fused._task binds placeholders: binding them before
   the members (so that a nested group's own numbering survives) makes it FALSE *)
Theorem C14_binding_order_matters :
  ~ (forall (V : Type) (fn_sem : nat -> list V -> V) (lit : nat -> V) (ext : nat -> nat -> V)
            self_name group deps index,
       valid_group group deps = true -> self_fresh self_name group = true ->
       index < npart_of_root group ->
       exec_fused fn_sem lit (fused_task_bad self_name group deps index)
                  (dep_values ext (snd (fused_task_bad self_name group deps index))) (exec_fuel group)
       = eval_member fn_sem lit ext group (root_name group) index (eval_fuel group)).
Proof. exact fused_task_bad_refuted. Qed.
Print Assumptions C14_binding_order_matters.

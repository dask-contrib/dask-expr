(* ShuffleProofs.v -- every shuffle layer of Shuffle.v routes every row exactly once. *)
From DX Require Import Base ListFacts Shuffle.
From Coq Require Import Permutation.

(* the model declares `payload` as a section variable: make it implicit for the statements below *)
Arguments target {payload} r.
Arguments routed {payload} Ps p.
Arguments exec_stage {payload} sl prev.
Arguments exec_stages {payload} sts prev.
Arguments exec_shuffle {payload} L Ps.
Arguments exec_disk {payload} sigma Ps sel.

Lemma mem_In x l : existsb (Nat.eqb x) l = true <-> In x l.
Proof. apply existsb_eqb_In, Nat.eqb_eq. Qed.

Lemma dedup_sorted_In n l x : In x (dedup_sorted n l) <-> x < n /\ In x l.
Proof. unfold dedup_sorted. rewrite filter_In, in_seq, mem_In. intuition lia. Qed.

Lemma target_lt {payload} (Ps : list (list (row payload))) n :
  (forall P r, In P Ps -> In r P -> target r < n) -> forall r, In r (concat Ps) -> target r < n.
Proof. intros H r Hr. apply in_concat in Hr. destruct Hr as (P & HP & HrP). exact (H P r HP HrP). Qed.

Lemma opt_all_map {A B} (F : A -> option B) (G : A -> B) l :
  (forall x, In x l -> F x = Some (G x)) -> opt_all (map F l) = Some (map G l).
Proof.
  induction l as [|a l IH]; intros H; [reflexivity|].
  cbn [map opt_all]. rewrite (H a (or_introl eq_refl)), IH; [reflexivity|].
  intros x Hx; apply H; right; exact Hx.
Qed.

Lemma opt_concat_map {A C} (F : A -> option (list C)) (G : A -> list C) l :
  (forall x, In x l -> F x = Some (G x)) -> opt_concat (map F l) = Some (flat_map G l).
Proof.
  induction l as [|a l IH]; intros H; [reflexivity|].
  cbn [map opt_concat flat_map]. rewrite (H a (or_introl eq_refl)), IH; [reflexivity|].
  intros x Hx; apply H; right; exact Hx.
Qed.

Lemma lookup_map {B} (mk : nat -> B) l x :
  In x l -> lookup x (map (fun i => (i, mk i)) l) = Some (mk x).
Proof.
  induction l as [|a l IH]; intros H; [inversion H|].
  cbn [map lookup]. destruct (x =? a) eqn:E.
  - apply Nat.eqb_eq in E. subst. reflexivity.
  - apply Nat.eqb_neq in E. destruct H as [H|H]; [congruence|auto].
Qed.

(* a stage given as tables: piece (key, group) lists per output, one task per used group *)
Lemma exec_stage_tab {payload} (mk : nat -> list (nat * nat)) parts used (tk : nat -> gtask)
      (prev : list (list (row payload))) :
  (forall p ki, In p parts -> In ki (mk p) ->
     In (snd ki) used /\
     match gt_filter (tk (snd ki)) with None => true | Some f => existsb (Nat.eqb (fst ki)) f end = true) ->
  exec_stage {| sl_outs := map mk parts; sl_parts := parts; sl_groups := map (fun g => (g, tk g)) used |} prev
  = Some (map (fun p => flat_map (fun ki : nat * nat =>
            let g := tk (snd ki) in
            filter (fun r => digit (target r mod gt_np g) (gt_stage g) (gt_k g) =? fst ki)
                   (match gt_input g with Some j => nth j prev [] | None => [] end)) (mk p)) parts).
Proof.
  intros H. unfold exec_stage. cbn [sl_outs sl_groups]. rewrite map_map.
  apply opt_all_map. intros p Hp. apply opt_concat_map. intros ki Hki.
  destruct (H p ki Hp Hki) as [Hu Hkeep]. rewrite lookup_map by exact Hu.
  unfold piece. rewrite Hkeep. reflexivity.
Qed.

(* where a row that started in partition q and is bound for partition t sits after s stages: the s lowest base-k digits
   are those of t already, the others still those of q *)
Definition place (k s q t : nat) : nat := t mod k ^ s + (q / k ^ s) * k ^ s.

Lemma digit_lt n s k : k <> 0 -> digit n s k < k.
Proof. intros. unfold digit. apply Nat.mod_upper_bound. assumption. Qed.

Lemma digit_simple t n : t < n -> digit (t mod n) 0 n = t.
Proof.
  intros H. unfold digit. rewrite Nat.pow_0_r, Nat.div_1_r, (Nat.mod_small t n H). apply Nat.mod_small, H.
Qed.

Lemma place_0 k q t : place k 0 q t = q.
Proof.
  unfold place. rewrite Nat.pow_0_r, Nat.mod_1_r, Nat.div_1_r. lia.
Qed.

Lemma place_final k stages q t : q < k ^ stages -> t < k ^ stages -> place k stages q t = t.
Proof.
  intros Hq Ht. unfold place. rewrite Nat.div_small, Nat.mod_small by assumption. lia.
Qed.

(* A number written as what lies below digit s, digit s, and what lies above it. *)
Section Split.
  Variables k s : nat.
  Hypothesis Hk : k <> 0.
  Local Notation B := (k ^ s).

  Lemma B_nz : B <> 0.
  Proof. apply Nat.pow_nonzero, Hk. Qed.

  Lemma decomp n : n = n mod B + digit n s k * B + n / (B * k) * (B * k).
  Proof.
    unfold digit. rewrite <- (Nat.div_div n B k) by (exact B_nz || exact Hk).
    pose proof (Nat.div_mod n B B_nz). pose proof (Nat.div_mod (n / B) k Hk). nia.
  Qed.

  Lemma compose_spec a d h n : a < B -> d < k ->
    a + d * B + h * (B * k) = n <-> a = n mod B /\ d = digit n s k /\ h = n / (B * k).
  Proof.
    intros Ha Hd. split; [|intros (-> & -> & ->); symmetry; apply decomp].
    intros E. rewrite (decomp n) in E.
    pose proof (Nat.mod_upper_bound n B B_nz) as Ha'. pose proof (digit_lt n s k Hk) as Hd'.
    assert (E1 : B * (k * h + d) + a = B * (k * (n / (B * k)) + digit n s k) + n mod B) by nia.
    destruct (Nat.div_mod_unique B _ _ _ _ Ha Ha' E1) as [E2 E3].
    destruct (Nat.div_mod_unique k _ _ _ _ Hd Hd' E2) as [E4 E5]. auto.
  Qed.

  Lemma ins_form x i : insert_digit x s i k = x mod B + i * B + x / (B * k) * (B * k).
  Proof. unfold insert_digit. pose proof (decomp x). lia. Qed.

  Lemma place_s q t : place k s q t = t mod B + digit q s k * B + q / (B * k) * (B * k).
  Proof. unfold place. pose proof (decomp q). pose proof (Nat.div_mod q B B_nz). lia. Qed.

  Lemma place_S q t : place k (S s) q t = t mod B + digit t s k * B + q / (B * k) * (B * k).
  Proof.
    unfold place, digit. rewrite Nat.pow_succ_r', (Nat.mul_comm k B).
    rewrite Nat.mod_mul_r by (exact B_nz || exact Hk). ring.
  Qed.

  (* Stage s builds partition x from the partitions insert_digit x s i (i < k), taking from each the rows whose target
     has digit s of x.  For a row that sits at its place for s, both sides say: i is digit s of q, and x is made of
     the low part of t, digit s of t and the high part of q. *)
  Lemma key_step q t x i : i < k ->
    ((place k s q t =? insert_digit x s i k) && (digit t s k =? digit x s k))%bool
    = ((i =? digit q s k) && (place k (S s) q t =? x))%bool.
  Proof.
    intros Hi. pose proof (Nat.mod_upper_bound t B B_nz) as Ht. pose proof (Nat.mod_upper_bound x B B_nz) as Hx.
    apply eq_true_iff_eq. rewrite !andb_true_iff, !Nat.eqb_eq, place_s, place_S.
    destruct (proj1 (compose_spec _ _ _ _ Hx Hi) (eq_sym (ins_form x i))) as (Ea & Ei & Eh).
    rewrite !compose_spec by (assumption || apply digit_lt, Hk). intuition congruence.
  Qed.

  Lemma ins_lt stages x i : s < stages -> i < k -> x < k ^ stages -> insert_digit x s i k < k ^ stages.
  Proof.
    intros Hs Hi Hx. rewrite ins_form.
    assert (E : k ^ stages = B * k * k ^ (stages - S s)).
    { replace stages with (S s + (stages - S s)) at 1 by lia. rewrite Nat.pow_add_r, Nat.pow_succ_r'. ring. }
    rewrite E in *. set (M := k ^ (stages - S s)) in *.
    pose proof (Nat.mod_upper_bound x B B_nz).
    assert (Hh : x / (B * k) < M) by (apply Nat.div_lt_upper_bound; [nia|exact Hx]).
    assert ((i + 1) * B <= k * B) by (apply Nat.mul_le_mono_r; lia).
    assert ((x / (B * k) + 1) * (B * k) <= M * (B * k)) by (apply Nat.mul_le_mono_r; lia).
    nia.
  Qed.
End Split.

Theorem simple_route : forall (payload : Type) (n_in n_out : nat) (sel : list nat) (filtered : bool)
                              (Ps : list (list (row payload))),
  length Ps = n_in ->
  (forall p, In p sel -> p < n_out) ->
  (forall P r, In P Ps -> In r P -> target r < n_out) ->
  exec_shuffle (simple_layer n_in n_out sel filtered) Ps = Some (map (routed Ps) sel).
Proof.
  intros payload n_in n_out sel filtered Ps Hlen Hsel Htgt.
  unfold exec_shuffle, simple_layer. cbn [sh_stages sh_regroup exec_stages exec_regroup].
  destruct sel as [|s0 sl]; [reflexivity|].
  rewrite (exec_stage_tab (fun p_out => map (fun p_in => (p_out, p_in)) (seq 0 n_in))).
  - f_equal. apply map_ext. intros p. rewrite flat_map_map. cbn [fst snd gt_np gt_stage gt_k gt_input].
    rewrite <- filter_flat_map, flat_map_nth_seq by lia.
    unfold routed. apply filter_ext_in. intros r Hr.
    rewrite digit_simple by exact (target_lt Ps n_out Htgt r Hr). reflexivity.
  - intros p ki Hp Hki. apply in_map_iff in Hki. destruct Hki as (i & <- & Hi). cbn [fst snd gt_filter].
    split; [exact Hi|]. destruct filtered; [|reflexivity]. apply mem_In, Hp.
Qed.

Theorem disk_route : forall (payload : Type) (sigma : list nat) (sel : list nat) (Ps : list (list (row payload))),
  Permutation sigma (seq 0 (length Ps)) ->
  forall i, i < length sel -> Permutation (nth i (exec_disk sigma Ps sel) []) (routed Ps (nth i sel 0)).
Proof.
  intros payload sigma sel Ps Hsig i Hi.
  unfold exec_disk, disk_collect. rewrite (nth_map_lt 0) by exact Hi.
  rewrite (proj2 (mem_In _ sel) (nth_In _ _ Hi)), Hsig, <- filter_flat_map, concat_nth_seq. reflexivity.
Qed.

Section Staged.
  Variable payload : Type.
  Variables n_in n_out k stages : nat.
  Variable sel : list nat.
  Variable filtered : bool.
  Variable Ps : list (list (row payload)).
  Hypothesis Hlen : length Ps = n_in.
  Hypothesis Hnin : 1 <= n_in.
  Hypothesis Hk : 2 <= k.
  Hypothesis HK : n_in <= k ^ stages.
  Hypothesis Hst : 1 <= stages.
  Hypothesis Hsel : forall p, In p sel -> p < n_out.
  Hypothesis Htgt : forall P r, In P Ps -> In r P -> target r < n_out.

  Local Notation K := (k ^ stages).
  Local Notation rw := (row payload).

  (* the partition numbers that exist after s stages: all K, except that the last stage of a layer without regroup step
     produces the requested ones only *)
  Definition parts_at (s : nat) : list nat := if ((s =? stages) && (n_out =? n_in))%bool then sel else seq 0 K.
  Definition stage_flt (s : nat) : option (list nat) :=
    if ((S s =? stages) && (n_out =? n_in) && filtered)%bool then Some (map (fun p => digit p s k) sel) else None.
  Definition stage_outs (s : nat) : list (list (nat * nat)) :=
    map (fun p => map (fun i => (digit p s k, insert_digit p s i k)) (seq 0 k)) (parts_at (S s)).
  Definition stage_task (s inp : nat) : gtask :=
    {| gt_input := if s =? 0 then (if inp <? n_in then Some inp else None) else Some inp;
       gt_filter := stage_flt s; gt_stage := s; gt_k := k; gt_np := n_in; gt_nfinal := n_out |}.

  Lemma task_stage_eq s :
    task_stage n_in n_out k stages sel filtered s =
    {| sl_outs := stage_outs s; sl_parts := parts_at (S s);
       sl_groups := map (fun inp => (inp, stage_task s inp))
                        (dedup_sorted K (map snd (concat (stage_outs s)))) |}.
  Proof. reflexivity. Qed.

  Definition stage_part (s : nat) (prev : list (list rw)) (p : nat) : list rw :=
    flat_map (fun i => filter (fun r : rw => digit (target r mod n_in) s k =? digit p s k)
                              (nth (insert_digit p s i k) prev []))
             (seq 0 k).

  Definition spec_at (s x : nat) : list rw :=
    flat_map (fun q => filter (fun r : rw => place k s q (target r mod n_in) =? x) (nth q Ps []))
             (seq 0 K).

  Definition inv (s : nat) (parts : list (list rw)) : Prop :=
    forall x, x < K -> Permutation (nth x parts []) (spec_at s x).

  Lemma k_nz : k <> 0. Proof. lia. Qed.

  Lemma parts_at_lt s : s < stages -> parts_at s = seq 0 K.
  Proof. intros Hs. unfold parts_at. rewrite (proj2 (Nat.eqb_neq s stages)) by lia. reflexivity. Qed.

  Lemma parts_at_last : parts_at stages = if n_out =? n_in then sel else seq 0 K.
  Proof. unfold parts_at. rewrite Nat.eqb_refl. reflexivity. Qed.

  Lemma parts_at_K s p : In p (parts_at s) -> p < K.
  Proof.
    unfold parts_at. destruct (_ && _)%bool eqn:E; intros H; [|apply in_seq in H; lia].
    apply andb_prop in E. destruct E as [_ E]. apply Nat.eqb_eq in E. apply Hsel in H. lia.
  Qed.

  Lemma keep_true s p : In p (parts_at (S s)) ->
    match stage_flt s with None => true | Some f => existsb (Nat.eqb (digit p s k)) f end = true.
  Proof.
    unfold stage_flt, parts_at. destruct ((S s =? stages) && (n_out =? n_in))%bool; cbn [andb]; [|reflexivity].
    destruct filtered; [|reflexivity]. intros H. apply mem_In, (in_map (fun p => digit p s k)), H.
  Qed.

  Lemma spec_at_0 x : x < K -> spec_at 0 x = nth x Ps [].
  Proof.
    intros Hx. unfold spec_at. rewrite (flat_map_single _ K x Hx).
    - apply filter_true. intros r _. rewrite place_0. apply Nat.eqb_refl.
    - intros q _ Hne. apply filter_false. intros r _. rewrite place_0. apply Nat.eqb_neq, Hne.
  Qed.

  Lemma inv_0 : inv 0 Ps.
  Proof. intros x Hx. rewrite spec_at_0 by exact Hx. reflexivity. Qed.

  Lemma exec_task_stage s prev :
    s < stages -> inv s prev ->
    exec_stage (task_stage n_in n_out k stages sel filtered s) prev
    = Some (map (stage_part s prev) (parts_at (S s))).
  Proof.
    intros Hs Hinv.
    assert (Hin : forall p i, In p (parts_at (S s)) -> In i (seq 0 k) -> insert_digit p s i k < K).
    { intros p i Hp Hi. apply in_seq in Hi. apply ins_lt; [apply k_nz|lia|lia|exact (parts_at_K _ p Hp)]. }
    rewrite task_stage_eq. unfold stage_outs at 1. rewrite exec_stage_tab.
    - f_equal. apply map_ext_in. intros p Hp. rewrite flat_map_map. apply flat_map_ext_in. intros i Hi.
      cbn [fst snd stage_task gt_np gt_stage gt_k gt_input]. f_equal.
      destruct (Nat.eqb_spec s 0) as [->|]; [|reflexivity].
      destruct (Nat.ltb_spec (insert_digit p 0 i k) n_in) as [|Hge]; [reflexivity|].
      (* stage 0 reads an empty frame in place of the partitions n_in .. K-1 that pad the input: they are empty *)
      symmetry. apply Permutation_nil. rewrite (Hinv _ (Hin p i Hp Hi)), spec_at_0 by exact (Hin p i Hp Hi).
      rewrite nth_overflow by lia. reflexivity.
    - intros p ki Hp Hki. split.
      + apply dedup_sorted_In. split.
        * apply in_map_iff in Hki. destruct Hki as (i & <- & Hi). exact (Hin p i Hp Hi).
        * apply in_map, in_concat. eexists. split; [|exact Hki]. exact (in_map _ _ _ Hp).
      + apply in_map_iff in Hki. destruct Hki as (i & <- & _). exact (keep_true s p Hp).
  Qed.

  Lemma stage_part_spec s prev x :
    s < stages -> inv s prev -> x < K -> Permutation (stage_part s prev x) (spec_at (S s) x).
  Proof.
    (* put the invariant under the filters, exchange the sums over i and q: of the k terms for a source q only the one
       with i = digit s of q is not empty *)
    intros Hs Hinv Hx. unfold stage_part.
    transitivity
      (flat_map (fun i => flat_map (fun q => filter (fun r : rw =>
            ((i =? digit q s k) && (place k (S s) q (target r mod n_in) =? x))%bool) (nth q Ps []))
          (seq 0 K)) (seq 0 k)).
    - apply Permutation_flat_map_pw. intros i Hi. apply in_seq in Hi.
      rewrite (Permutation_filter _ _ _ (Hinv _ (ins_lt k s k_nz stages x i Hs (proj2 Hi) Hx))).
      unfold spec_at. rewrite filter_flat_map. apply Permutation_refl', flat_map_ext. intros q.
      rewrite filter_filter. apply filter_ext. intros r. apply key_step; [apply k_nz|lia].
    - rewrite flat_map_swap. apply Permutation_refl', flat_map_ext. intros q.
      rewrite (flat_map_single _ k (digit q s k) (digit_lt q s k k_nz)).
      + apply filter_ext. intros r. rewrite Nat.eqb_refl. reflexivity.
      + intros i _ Hne. apply filter_false. intros r _. apply Nat.eqb_neq in Hne. rewrite Hne. reflexivity.
  Qed.

  Lemma spec_final x :
    spec_at stages x = filter (fun r : rw => target r mod n_in =? x) (concat Ps).
  Proof.
    unfold spec_at.
    rewrite (flat_map_ext_in _ (fun q => filter (fun r : rw => target r mod n_in =? x) (nth q Ps []))).
    - rewrite <- filter_flat_map, flat_map_nth_seq by lia. reflexivity.
    - intros q Hq. apply in_seq in Hq. apply filter_ext. intros r.
      rewrite place_final; [reflexivity|lia|].
      pose proof (Nat.mod_upper_bound (target r) n_in). lia.
  Qed.

  Lemma run_stages : forall len a prev,
    a + S len = stages ->
    inv a prev ->
    exists outs,
      exec_stages (map (task_stage n_in n_out k stages sel filtered) (seq a (S len))) prev = Some outs /\
      length outs = length (parts_at stages) /\
      forall i, i < length (parts_at stages) ->
        Permutation (nth i outs []) (spec_at stages (nth i (parts_at stages) 0)).
  Proof.
    induction len as [|len IH]; intros a prev Ha Hinv; cbn [seq map exec_stages];
      rewrite exec_task_stage by (lia || assumption).
    - rewrite <- Ha, Nat.add_1_r. eexists. split; [reflexivity|]. split; [apply map_length|].
      intros i Hi. rewrite (nth_map_lt 0) by exact Hi.
      apply stage_part_spec; [lia|exact Hinv|]. apply (parts_at_K (S a)), nth_In, Hi.
    - rewrite parts_at_lt by lia. apply IH; [lia|].
      intros x Hx. rewrite nth_map_seq by exact Hx. apply stage_part_spec; [lia|exact Hinv|exact Hx].
  Qed.

  Theorem staged_route_sec :
    exists outs, exec_shuffle (task_layer n_in n_out k stages sel filtered) Ps = Some outs /\
                 length outs = length sel /\
                 forall i, i < length sel -> Permutation (nth i outs []) (routed Ps (nth i sel 0)).
  Proof.
    destruct (run_stages (stages - 1) 0 Ps) as (parts & Hex & Hl & Hperm); [lia|exact inv_0|].
    replace (S (stages - 1)) with stages in Hex by lia.
    unfold exec_shuffle, task_layer. cbn [sh_stages sh_regroup]. rewrite Hex.
    rewrite parts_at_last in Hl, Hperm.
    destruct (Nat.eqb_spec n_out n_in) as [E|E]; cbn [exec_regroup].
    - exists parts. split; [reflexivity|]. split; [exact Hl|].
      intros i Hi. rewrite (Hperm i Hi), spec_final. apply Permutation_refl', filter_ext_in.
      intros r Hr. apply (target_lt Ps n_out Htgt) in Hr. rewrite Nat.mod_small by lia. reflexivity.
    - rewrite seq_length in Hl, Hperm.
      eexists. split; [reflexivity|]. rewrite map_map. split; [apply map_length|].
      intros i Hi. rewrite (nth_map_lt 0) by exact Hi. cbn [fst snd].
      set (p := nth i sel 0).
      assert (Hp : p mod n_in < K).
      { pose proof (Nat.mod_upper_bound p n_in). lia. }
      rewrite (Permutation_filter _ _ _ (Hperm _ Hp)), seq_nth by exact Hp. cbn [plus].
      rewrite spec_final, filter_filter. apply Permutation_refl', filter_ext.
      intros r. destruct (Nat.eqb_spec (target r) p) as [->|]; [|apply andb_false_r].
      rewrite Nat.eqb_refl. reflexivity.
  Qed.
End Staged.

Theorem staged_route : forall (payload : Type) (n_in n_out k stages : nat) (sel : list nat) (filtered : bool)
                              (Ps : list (list (row payload))),
  length Ps = n_in -> 1 <= n_in -> n_in <= n_out -> 2 <= k -> n_in <= k ^ stages -> 1 <= stages ->
  (forall p, In p sel -> p < n_out) ->
  (forall P r, In P Ps -> In r P -> target r < n_out) ->
  exists outs, exec_shuffle (task_layer n_in n_out k stages sel filtered) Ps = Some outs /\
               length outs = length sel /\
               forall i, i < length sel -> Permutation (nth i outs []) (routed Ps (nth i sel 0)).
Proof. intros. apply staged_route_sec; assumption. Qed.

Theorem shuffle_permutation : forall (payload : Type) (n_in n_out k stages : nat)
                                     (Ps : list (list (row payload))) outs,
  length Ps = n_in -> 1 <= n_in -> n_in <= n_out -> 2 <= k -> n_in <= k ^ stages -> 1 <= stages ->
  (forall P r, In P Ps -> In r P -> target r < n_out) ->
  exec_shuffle (task_layer n_in n_out k stages (seq 0 n_out) false) Ps = Some outs ->
  Permutation (concat outs) (concat Ps) /\ (forall i r, i < n_out -> In r (nth i outs []) -> target r = i).
Proof.
  intros payload n_in n_out k stages Ps outs Hlen Hnin Hle Hk HK Hst Htgt Hex.
  destruct (staged_route payload n_in n_out k stages (seq 0 n_out) false Ps) as (outs' & Hex' & Hl & Hperm);
    try assumption.
  { intros p Hp. apply in_seq in Hp. lia. }
  rewrite Hex in Hex'. injection Hex' as <-. rewrite seq_length in Hl, Hperm.
  assert (Hout : forall i, i < n_out -> Permutation (nth i outs []) (routed Ps i)).
  { intros i Hi. rewrite (Hperm i Hi), seq_nth by exact Hi. reflexivity. }
  split.
  - rewrite <- (concat_nth_seq outs), Hl.
    transitivity (concat (cuts (fun p (r : row payload) => target r =? p) n_out (concat Ps))).
    + unfold cuts. rewrite <- flat_map_concat_map. apply Permutation_flat_map_pw.
      intros i Hi. apply in_seq in Hi. apply Hout. lia.
    + exact (cuts_perm_class (fun r : row payload => target r) n_out (concat Ps) (target_lt Ps n_out Htgt)).
  - intros i r Hi Hr. apply (Permutation_in _ (Hout i Hi)), filter_In in Hr. apply Nat.eqb_eq, Hr.
Qed.

Definition exPs5 : list (list (row nat)) :=
  [ [(0, 10); (3, 11); (4, 12); (2, 13)];
    [(1, 20); (0, 21); (2, 22)];
    [(4, 30); (4, 31); (3, 32); (0, 33)];
    [(2, 40); (1, 41)];
    [(3, 50); (0, 51); (1, 52); (2, 53); (4, 54)] ].

Example ex_filtered_subset :
  exec_shuffle (task_layer 5 5 3 2 [0; 2; 3; 4] true) exPs5
  = Some [ [(0, 10); (0, 21); (0, 33); (0, 51)];
           [(2, 13); (2, 22); (2, 40); (2, 53)];
           [(3, 11); (3, 32); (3, 50)];
           [(4, 12); (4, 30); (4, 31); (4, 54)] ].
Proof. vm_compute. reflexivity. Qed.

Example ex_filtered_subset_routed :
  exec_shuffle (task_layer 5 5 3 2 [0; 2; 3; 4] true) exPs5 = Some (map (routed exPs5) [0; 2; 3; 4]).
Proof. vm_compute. reflexivity. Qed.

Definition exPs3 : list (list (row nat)) :=
  [ [(0, 10); (6, 11); (3, 12); (5, 13)];
    [(1, 20); (4, 21); (6, 22); (2, 23)];
    [(5, 30); (0, 31); (3, 32)] ].

Example ex_regroup :
  exec_shuffle (task_layer 3 7 2 2 (seq 0 7) false) exPs3 = Some (map (routed exPs3) (seq 0 7)).
Proof. vm_compute. reflexivity. Qed.

Example ex_regroup_subset :
  exec_shuffle (task_layer 3 7 2 2 [6; 0; 3] true) exPs3
  = Some [ [(6, 11); (6, 22)]; [(0, 10); (0, 31)]; [(3, 12); (3, 32)] ].
Proof. vm_compute. reflexivity. Qed.

Print Assumptions simple_route.
Print Assumptions staged_route.
Print Assumptions disk_route.
Print Assumptions shuffle_permutation.

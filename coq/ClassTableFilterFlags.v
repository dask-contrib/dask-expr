(* ClassTableFilterFlags.v -- T-GEN obligation of property C03 *)
From Coq Require Import String List Bool.
From DX Require Import GeneratedClassTable ClassTableChecks.
Import ListNotations.
Open Scope string_scope.

(* filter pass-through: the filter may be evaluated below the operator.  Reviewed classes: value- and
   row-identity preserving operators (copy, rename of axis/series, string-storage conversion, to_frame),
   row rearrangements (repartition, shuffles, sorts) for row-wise predicates, Filter itself (squash schema S10),
   AsType (guarded by the lossless-cast test), ResetIndex / ToTimestamp (index only), parquet reader (dnf_sound). *)
Definition filter_passthrough_reviewed : list string := [
  "AddPrefixSeries"; "AddSuffixSeries"; "ArrowStringConversion"; "AsType"; "Filter"; "FilterAlign"; "RenameAxis"; "RenameSeries";
  "ResetIndex"; "ToFrame"; "ToFrameIndex"; "ToSeriesIndex"; "ToTimestamp"; "_DeepCopy";
  "Repartition"; "RepartitionDivisions"; "RepartitionFreq"; "RepartitionSize"; "RepartitionToFewer"; "RepartitionToMore";
  "DiskShuffle"; "P2PShuffle"; "RearrangeByColumn"; "SetIndex"; "SetPartition"; "Shuffle"; "ShuffleBase"; "SimpleShuffle"; "SortValues"; "TaskShuffle";
  "ReadParquetPyarrowFS" ].
Definition filter_flags_b : bool :=
  forallb (fun c => negb (c_filter_passthrough c) || mems (c_name c) filter_passthrough_reviewed) class_table.
Lemma filter_flags_reviewed : filter_flags_b = true.
Proof. vm_compute. reflexivity. Qed.


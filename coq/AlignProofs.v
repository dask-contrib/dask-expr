(* AlignProofs.v -- alignment of collections with known divisions (Align.v): unique(merge_sorted ds) is strictly increasing
   with exactly the entries of the operands' divisions; a list cut at non-decreasing divisions b is permuted and b is
   truthful for the pieces; a partition-wise index-local operation commutes with the cut (blockwise2_spec). *)
From DX Require Import Base ListFacts Repart RepartFacts Divisions DivisionsProofs Loc LocProofs Align.
From Coq Require Import Permutation ZifyBool.
Open Scope Z_scope.

Lemma sortedZ_bridge : forall l, Repart.sortedZ l <-> Divisions.sortedZ l.
Proof.
  induction l as [|x l IH].
  - split; [intros _ i Hi; cbn in Hi; lia|exact (fun _ => I)].
  - split.
    + intros [Hx Hs] [|i] Hi; [destruct l; [cbn in Hi; lia|exact Hx]|].
      apply (proj1 IH Hs i). cbn [length] in Hi. lia.
    + intros H. split.
      * destruct l as [|y l]; [exact I|]. apply (H 0%nat). cbn [length]. lia.
      * apply IH. intros i Hi. apply (H (S i)). cbn [length]. lia.
Qed.

Lemma strict_cons : forall x l,
  (forall y, In y l -> x < y) -> strict_incr l = true -> strict_incr (x :: l) = true.
Proof.
  intros x l H Hs. cbn [strict_incr]. rewrite Hs, andb_true_r.
  destruct l as [|y l]; [reflexivity|]. apply Z.ltb_lt, H. left. reflexivity.
Qed.

Lemma sorted_range : forall l i, Repart.sortedZ l -> (i < length l)%nat -> nthZ l 0 <= nthZ l i <= lastZ l.
Proof.
  intros l i Hs Hi. apply sortedZ_bridge in Hs. rewrite lastZ_nth.
  split; apply (sortedZ_le l _ _ Hs); lia.
Qed.

Lemma sorted_In_range : forall l y, Repart.sortedZ l -> In y l -> nthZ l 0 <= y <= lastZ l.
Proof. intros l y Hs Hy. destruct (In_nth l y 0 Hy) as [i [Hi <-]]. apply sorted_range; assumption. Qed.

Lemma first_In : forall l, (0 < length l)%nat -> In (nthZ l 0) l.
Proof. intros l. apply nth_In. Qed.

Lemma lastZ_In : forall l, (0 < length l)%nat -> In (lastZ l) l.
Proof. intros l Hl. rewrite lastZ_nth. apply nth_In. lia. Qed.

Lemma valid_divs_sorted : forall b, valid_divs b = true -> Repart.sortedZ b /\ (2 <= length b)%nat.
Proof.
  intros b H. pose proof (valid_almost_incr b H) as Ha. split; [|apply Ha].
  apply sortedZ_bridge. intros i Hi. apply (almost_incr_le Ha); lia.
Qed.

Lemma merge2_nil_l : forall b, merge2 [] b = b.
Proof. destruct b; reflexivity. Qed.
Lemma merge2_nil_r : forall a, merge2 a [] = a.
Proof. destruct a; reflexivity. Qed.
Lemma merge2_cons : forall x a y b,
  merge2 (x :: a) (y :: b) = if y <? x then y :: merge2 (x :: a) b else x :: merge2 a (y :: b).
Proof. reflexivity. Qed.

Lemma merge2_perm : forall a b, Permutation (merge2 a b) (a ++ b).
Proof.
  induction a as [|x a IHa]; intros b.
  - rewrite merge2_nil_l. apply Permutation_refl.
  - induction b as [|y b IHb].
    + rewrite merge2_nil_r, app_nil_r. apply Permutation_refl.
    + rewrite merge2_cons. destruct (y <? x).
      * rewrite IHb. apply (Permutation_middle (x :: a) b y).
      * cbn [app]. apply perm_skip, IHa.
Qed.

Lemma merge2_In : forall a b z, In z (merge2 a b) <-> In z a \/ In z b.
Proof.
  intros a b z. rewrite <- in_app_iff. split; apply Permutation_in; [|symmetry]; apply merge2_perm.
Qed.

Lemma merge2_sorted : forall a b,
  Repart.sortedZ a -> Repart.sortedZ b -> Repart.sortedZ (merge2 a b).
Proof.
  induction a as [|x a IHa]; intros b Ha Hb; [rewrite merge2_nil_l; exact Hb|].
  induction b as [|y b IHb]; [rewrite merge2_nil_r; exact Ha|].
  pose proof (proj1 (sorted_cons_iff _ _) Ha) as [Ha1 Ha2].
  pose proof (proj1 (sorted_cons_iff _ _) Hb) as [Hb1 Hb2].
  rewrite merge2_cons. destruct (Z.ltb_spec y x) as [Hlt|Hge]; apply sorted_cons_iff.
  - split; [|apply IHb, Hb2]. intros z Hz. apply merge2_In in Hz.
    destruct Hz as [[<-|Hz]|Hz]; [lia|specialize (Ha1 z Hz); lia|apply Hb1, Hz].
  - split; [|apply IHa; assumption]. intros z Hz. apply merge2_In in Hz.
    destruct Hz as [Hz|[<-|Hz]]; [apply Ha1, Hz|lia|specialize (Hb1 z Hz); lia].
Qed.

Theorem merge_sorted_perm : forall ds, Permutation (merge_sorted ds) (concat ds).
Proof.
  induction ds as [|d ds IH]; [apply Permutation_refl|].
  unfold merge_sorted in *. cbn [fold_right concat]. rewrite merge2_perm. apply Permutation_app_head, IH.
Qed.

Lemma merge_sorted_In : forall ds x, In x (merge_sorted ds) <-> In x (concat ds).
Proof. intros ds x. split; apply Permutation_in; [|symmetry]; apply merge_sorted_perm. Qed.

Theorem merge_sorted_sorted : forall ds,
  Forall Repart.sortedZ ds -> Repart.sortedZ (merge_sorted ds).
Proof.
  induction ds as [|d ds IH]; intros H; [exact I|].
  inversion H as [|? ? Hd Hds]; subst.
  unfold merge_sorted in *. cbn [fold_right]. apply merge2_sorted; [exact Hd|apply IH, Hds].
Qed.

Lemma uniq_seen_In : forall l seen x, In x (uniq_seen seen l) <-> In x l /\ ~ In x seen.
Proof.
  induction l as [|y l IH]; intros seen x; cbn [uniq_seen].
  - cbn [In]. tauto.
  - destruct (existsb (Z.eqb y) seen) eqn:E.
    + apply (existsb_eqb_In Z.eqb Z.eqb_eq) in E. rewrite IH. cbn [In]. split; [tauto|].
      intros [[->|H] Hn]; [contradiction|tauto].
    + assert (Hn : ~ In y seen) by (intro H; apply (existsb_eqb_In Z.eqb Z.eqb_eq) in H; congruence).
      cbn [In]. rewrite IH. cbn [In]. destruct (Z.eq_dec y x) as [->|Hne]; tauto.
Qed.

Theorem unique_In : forall l x, In x (unique l) <-> In x l.
Proof. intros l x. unfold unique. rewrite uniq_seen_In. cbn [In]. tauto. Qed.

Lemma uniq_seen_strict : forall l seen, Repart.sortedZ l -> strict_incr (uniq_seen seen l) = true.
Proof.
  induction l as [|x l IH]; intros seen Hs; [reflexivity|].
  apply sorted_cons_iff in Hs. destruct Hs as [H1 H2]. cbn [uniq_seen].
  destruct (existsb (Z.eqb x) seen); [apply IH, H2|].
  apply strict_cons; [|apply IH, H2].
  intros y Hy. apply uniq_seen_In in Hy. destruct Hy as [Hy Hn]. specialize (H1 y Hy).
  assert (y <> x) by (intros ->; apply Hn; left; reflexivity). lia.
Qed.

Theorem unique_sorted_strict : forall l, Repart.sortedZ l -> strict_incr (unique l) = true.
Proof. intros l Hs. apply uniq_seen_strict, Hs. Qed.

Lemma align_cases : forall ds,
  (exists x, unique (merge_sorted ds) = [x] /\ align_divisions ds = [x; x]) \/
  ((length (unique (merge_sorted ds)) <> 1)%nat /\ align_divisions ds = unique (merge_sorted ds)).
Proof.
  intros ds. unfold align_divisions. destruct (unique (merge_sorted ds)) as [|x [|y r]].
  - right. split; [cbn; lia|reflexivity].
  - left. exists x. split; reflexivity.
  - right. split; [cbn [length]; lia|reflexivity].
Qed.

Lemma concat_nonempty : forall ds : list (list Z),
  ds <> [] -> Forall (fun d => (2 <= length d)%nat) ds -> concat ds <> [].
Proof.
  intros [|d ds] Hne Hl; [congruence|]. inversion Hl as [|? ? Hd _]; subst.
  destruct d as [|x d]; [cbn in Hd; lia|]. cbn. discriminate.
Qed.

Lemma unique_merge_nonempty : forall ds, concat ds <> [] -> (0 < length (unique (merge_sorted ds)))%nat.
Proof.
  intros ds Hne. destruct (concat ds) as [|x r] eqn:Ec; [congruence|].
  assert (Hx : In x (unique (merge_sorted ds))) by (apply unique_In, merge_sorted_In; rewrite Ec; left; reflexivity).
  destruct (unique (merge_sorted ds)); [destruct Hx|cbn [length]; lia].
Qed.

Lemma align_shape : forall ds,
  ds <> [] -> Forall (fun d => (2 <= length d)%nat) ds -> Forall Repart.sortedZ ds ->
  (strict_incr (align_divisions ds) = true /\ (2 <= length (align_divisions ds))%nat)
  \/ exists x, align_divisions ds = [x; x].
Proof.
  intros ds Hne Hl Hs.
  pose proof (unique_merge_nonempty ds (concat_nonempty ds Hne Hl)) as Hu.
  pose proof (unique_sorted_strict _ (merge_sorted_sorted ds Hs)) as Hst.
  destruct (align_cases ds) as [[x [_ E]]|[Hlen E]].
  - right. exists x. exact E.
  - left. rewrite E. split; [exact Hst|lia].
Qed.

Theorem align_strict_or_point : forall ds,
  ds <> [] -> Forall (fun d => (2 <= length d)%nat) ds -> Forall Repart.sortedZ ds ->
  strict_incr (align_divisions ds) = true \/ exists x, align_divisions ds = [x; x].
Proof.
  intros ds Hne Hl Hs. destruct (align_shape ds Hne Hl Hs) as [[H _]|H]; [left; exact H|right; exact H].
Qed.

Theorem align_valid : forall ds,
  ds <> [] -> Forall (fun d => (2 <= length d)%nat) ds -> Forall Repart.sortedZ ds ->
  valid_divs (align_divisions ds) = true.
Proof.
  intros ds Hne Hl Hs. destruct (align_shape ds Hne Hl Hs) as [[H1 H2]|[x E]].
  - apply strict_valid; assumption.
  - rewrite E. unfold valid_divs, lastZ. cbn. rewrite Z.eqb_refl, Z.ltb_irrefl. reflexivity.
Qed.

Lemma align_sorted_len : forall ds,
  ds <> [] -> Forall (fun d => (2 <= length d)%nat) ds -> Forall Repart.sortedZ ds ->
  Repart.sortedZ (align_divisions ds) /\ (2 <= length (align_divisions ds))%nat.
Proof. intros ds Hne Hl Hs. apply valid_divs_sorted, align_valid; assumption. Qed.

Lemma align_In_iff : forall ds x, In x (align_divisions ds) <-> In x (concat ds).
Proof.
  intros ds x. rewrite <- merge_sorted_In, <- (unique_In (merge_sorted ds)).
  destruct (align_cases ds) as [[y [E1 E2]]|[_ E]]; rewrite ?E1, ?E2, ?E; cbn [In]; tauto.
Qed.

Theorem align_contains : forall ds d x, In d ds -> In x d -> In x (align_divisions ds).
Proof. intros ds d x Hd Hx. apply align_In_iff, in_concat. exists d. split; assumption. Qed.

Theorem align_only : forall ds x, In x (align_divisions ds) -> exists d, In d ds /\ In x d.
Proof. intros ds x H. apply align_In_iff, in_concat in H. exact H. Qed.

Lemma minl_spec : forall l, l <> [] -> In (minl l) l /\ forall y, In y l -> minl l <= y.
Proof. exact list_min_spec. Qed.

Lemma maxl_spec : forall l, l <> [] -> In (maxl l) l /\ forall y, In y l -> y <= maxl l.
Proof. exact list_max_spec. Qed.

Theorem align_bounds : forall ds,
  ds <> [] -> Forall (fun d => (2 <= length d)%nat) ds -> Forall Repart.sortedZ ds ->
  nthZ (align_divisions ds) 0 = minl (concat ds) /\ lastZ (align_divisions ds) = maxl (concat ds).
Proof.
  intros ds Hne Hl Hs.
  destruct (align_sorted_len ds Hne Hl Hs) as [HAs HAl].
  pose proof (concat_nonempty ds Hne Hl) as HL.
  destruct (minl_spec _ HL) as [Hm1 Hm2]. destruct (maxl_spec _ HL) as [HM1 HM2].
  (* the two lists have the same entries: the smallest and the largest entry of either bound those of the other *)
  pose proof (sorted_In_range _ _ HAs (proj2 (align_In_iff ds _) Hm1)).
  pose proof (sorted_In_range _ _ HAs (proj2 (align_In_iff ds _) HM1)).
  pose proof (Hm2 _ (proj1 (align_In_iff ds _) (first_In (align_divisions ds) ltac:(lia)))).
  pose proof (HM2 _ (proj1 (align_In_iff ds _) (lastZ_In (align_divisions ds) ltac:(lia)))). lia.
Qed.

Corollary align_covers : forall ds d,
  ds <> [] -> Forall (fun d => (2 <= length d)%nat) ds -> Forall Repart.sortedZ ds ->
  In d ds ->
  nthZ (align_divisions ds) 0 <= nthZ d 0 /\ lastZ d <= lastZ (align_divisions ds).
Proof.
  intros ds d Hne Hl Hs Hd.
  destruct (align_sorted_len ds Hne Hl Hs) as [HAs _].
  pose proof (proj1 (Forall_forall _ _) Hl d Hd) as Hld. cbv beta in Hld.
  pose proof (sorted_In_range _ _ HAs (align_contains ds d _ Hd (first_In d ltac:(lia)))).
  pose proof (sorted_In_range _ _ HAs (align_contains ds d _ Hd (lastZ_In d ltac:(lia)))). lia.
Qed.

Lemma in_target_row_ok : forall b j v, in_target b j v = true <-> row_ok b (length b - 1) j v.
Proof. intros b j v. unfold in_target, row_ok, nthZ. lia. Qed.

(* the target range a value falls into is the partition Loc.part_of locates it in *)
Lemma in_target_part_of : forall b j v,
  Repart.sortedZ b -> (2 <= length b)%nat -> (j < length b - 1)%nat -> nthZ b 0 <= v <= lastZ b ->
  in_target b j v = (part_of b v =? j)%nat.
Proof.
  intros b j v Hs Hl Hj Hv. apply sortedZ_bridge in Hs. rewrite lastZ_nth in Hv.
  apply eq_true_iff_eq. rewrite in_target_row_ok, Nat.eqb_eq. split.
  - apply row_ok_part_of; [exact Hs|lia].
  - intros <-. apply part_of_row_ok; assumption.
Qed.

(* every index value within [b_0, b_last] falls into exactly one target range; only non-decreasing b with >= 2 entries
   is needed (valid_divs b is a special case) *)
Theorem target_exactly_one : forall b v,
  Repart.sortedZ b -> (2 <= length b)%nat -> nthZ b 0 <= v <= lastZ b ->
  exists j, (j < length b - 1)%nat /\ in_target b j v = true /\
            forall j', (j' < length b - 1)%nat -> in_target b j' v = true -> j' = j.
Proof.
  intros b v Hs Hl Hv. exists (part_of b v). pose proof (part_of_bound b v) as Hb.
  split; [lia|]. split.
  - rewrite in_target_part_of by (assumption || lia). apply Nat.eqb_refl.
  - intros j' Hj' H. rewrite in_target_part_of in H by assumption. symmetry. apply Nat.eqb_eq, H.
Qed.

Lemma cut_perm : forall (A : Type) (key : A -> Z) b (L : list A),
  Repart.sortedZ b -> (2 <= length b)%nat -> (forall o, In o L -> nthZ b 0 <= key o <= lastZ b) ->
  Permutation (concat (cuts (fun j o => in_target b j (key o)) (length b - 1) L)) L.
Proof. intros A key b L Hs Hl Hk. apply cuts_perm. intros o Ho. apply target_exactly_one; auto. Qed.

Lemma cut_truthful : forall (A : Type) (key : A -> Z) b (L : list A),
  Repart.sortedZ b -> (2 <= length b)%nat ->
  Divisions.truthful b (map (map key) (cuts (fun j o => in_target b j (key o)) (length b - 1) L)).
Proof.
  intros A key b L Hs Hl. unfold cuts. rewrite map_map. split; [|split].
  - rewrite map_length, seq_length. lia.
  - apply sortedZ_bridge, Hs.
  - intros i x Hi Hx. rewrite map_length, seq_length in *. rewrite nth_map_seq in Hx by exact Hi.
    apply in_map_iff in Hx. destruct Hx as [o [<- Ho]]. apply filter_In in Ho. apply in_target_row_ok, Ho.
Qed.

Lemma combine_map_same : forall (A B C : Type) (g1 : A -> B) (g2 : A -> C) l,
  combine (map g1 l) (map g2 l) = map (fun x => (g1 x, g2 x)) l.
Proof. induction l as [|x l IH]; [reflexivity|]. cbn [map combine]. rewrite IH. reflexivity. Qed.

Section Sem.
  Variable row : Type.
  Variable idx : row -> Z.

  Lemma spec_plan_length : forall b (P : list (list row)), length (spec_plan idx b P) = (length b - 1)%nat.
  Proof. intros b P. apply (cuts_length (fun j r => in_target b j (idx r))). Qed.

  Lemma spec_plan_perm_sorted : forall b (P : list (list row)),
    Repart.sortedZ b -> (2 <= length b)%nat ->
    (forall r, In r (concat P) -> nthZ b 0 <= idx r <= lastZ b) ->
    Permutation (concat (spec_plan idx b P)) (concat P).
  Proof. intros b P. exact (cut_perm row idx b (concat P)). Qed.

  Lemma spec_plan_perm_valid : forall b (P : list (list row)),
    valid_divs b = true ->
    (forall r, In r (concat P) -> nthZ b 0 <= idx r <= lastZ b) ->
    Permutation (concat (spec_plan idx b P)) (concat P).
  Proof.
    intros b P Hv Hr. destruct (valid_divs_sorted b Hv) as [Hs Hl].
    apply spec_plan_perm_sorted; assumption.
  Qed.

  Lemma respects_bounds : forall a (P : list (list row)) r,
    Repart.sortedZ a -> respects idx a P -> In r (concat P) -> nthZ a 0 <= idx r <= lastZ a.
  Proof.
    intros a P r Hs [Hlen Hr] Hin.
    apply in_concat in Hin. destruct Hin as [p [Hp Hrp]].
    destruct (In_nth P p [] Hp) as [i [Hi Hnth]]. subst p.
    specialize (Hr i r Hrp). apply in_target_row_ok in Hr.
    pose proof (sorted_range a i Hs ltac:(lia)). pose proof (sorted_range a (S i) Hs ltac:(lia)).
    unfold row_ok, nthZ in *. lia.
  Qed.

  Theorem align_partition_exact : forall ds a (P : list (list row)),
    ds <> [] -> Forall (fun d => (2 <= length d)%nat) ds -> Forall Repart.sortedZ ds ->
    In a ds -> respects idx a P ->
    (forall r, In r (concat P) ->
       exists j, (j < length (align_divisions ds) - 1)%nat /\
                 in_target (align_divisions ds) j (idx r) = true /\
                 forall j', (j' < length (align_divisions ds) - 1)%nat ->
                            in_target (align_divisions ds) j' (idx r) = true -> j' = j)
    /\ Permutation (concat (spec_plan idx (align_divisions ds) P)) (concat P).
  Proof.
    intros ds a P Hne Hl Hs Ha Hresp.
    destruct (align_sorted_len ds Hne Hl Hs) as [HAs HAl].
    assert (Hb : forall r, In r (concat P) -> nthZ (align_divisions ds) 0 <= idx r <= lastZ (align_divisions ds)).
    { intros r Hin. pose proof (respects_bounds a P r (proj1 (Forall_forall _ _) Hs a Ha) Hresp Hin).
      pose proof (align_covers ds a Hne Hl Hs Ha). lia. }
    split; [intros r Hin; apply target_exactly_one; auto|apply spec_plan_perm_sorted; assumption].
  Qed.

  Lemma spec_plan_nth : forall b (P : list (list row)) j, (j < length b - 1)%nat ->
    nth j (spec_plan idx b P) [] = spec_out idx b P j.
  Proof. intros b P j. apply (cuts_nth (fun j r => in_target b j (idx r))). Qed.

  Lemma spec_plan_nth_In : forall b (P : list (list row)) j r,
    In r (nth j (spec_plan idx b P) []) <->
    (j < length b - 1)%nat /\ In r (concat P) /\ in_target b j (idx r) = true.
  Proof. intros b P j r. apply (In_cuts (fun j r => in_target b j (idx r))). Qed.

  Theorem align_copartitioned : forall b (P : list (list row)) v j, (j < length b - 1)%nat ->
    sel idx v (nth j (spec_plan idx b P) []) = if in_target b j v then sel idx v (concat P) else [].
  Proof.
    intros b P v j Hj. rewrite spec_plan_nth by exact Hj. unfold spec_out, sel. rewrite filter_filter.
    (* on the rows with index value v, the test of partition j is the test of v *)
    rewrite (filter_ext _ (fun r => in_target b j v && (idx r =? v))).
    - destruct (in_target b j v); [reflexivity|]. apply filter_false. reflexivity.
    - intros r. destruct (Z.eqb_spec (idx r) v) as [->|_]; [reflexivity|]. rewrite !andb_false_r. reflexivity.
  Qed.

  Corollary align_same_partition : forall ds (P1 P2 : list (list row)) j r1 r2,
    idx r1 = idx r2 ->
    In r1 (nth j (spec_plan idx (align_divisions ds) P1) []) -> In r2 (concat P2) ->
    In r2 (nth j (spec_plan idx (align_divisions ds) P2) []).
  Proof.
    intros ds P1 P2 j r1 r2 E H1 H2. apply spec_plan_nth_In in H1. destruct H1 as [Hj [_ Ht]].
    apply spec_plan_nth_In. rewrite <- E. tauto.
  Qed.

  Lemma spec_plan_truthful : forall b (P : list (list row)),
    Repart.sortedZ b -> (2 <= length b)%nat ->
    Divisions.truthful b (map (map idx) (spec_plan idx b P)).
  Proof. intros b P. exact (cut_truthful row idx b (concat P)). Qed.

  Theorem align_truthful : forall ds (P : list (list row)),
    ds <> [] -> Forall (fun d => (2 <= length d)%nat) ds -> Forall Repart.sortedZ ds ->
    Divisions.truthful (align_divisions ds) (map (map idx) (spec_plan idx (align_divisions ds) P)).
  Proof.
    intros ds P Hne Hl Hs. apply spec_plan_truthful; apply align_sorted_len; assumption.
  Qed.

  Section Local.
    Variable out : Type.
    Variable f : list row -> list row -> list out.
    Variable key : out -> Z.
    Hypothesis locality : forall (p : Z -> bool) A B,
      filter (fun o => p (key o)) (f A B) = f (filter (fun r => p (idx r)) A) (filter (fun r => p (idx r)) B).

    Lemma blockwise2_spec : forall b (P1 P2 : list (list row)),
      blockwise2 f (spec_plan idx b P1) (spec_plan idx b P2)
      = cuts (fun j o => in_target b j (key o)) (length b - 1) (f (concat P1) (concat P2)).
    Proof.
      intros b P1 P2. unfold blockwise2, spec_plan, cuts. rewrite combine_map_same, map_map.
      apply map_ext. intros j. cbn [fst snd]. unfold spec_out.
      symmetry. apply (locality (in_target b j)).
    Qed.

    (* for any divisions b; nothing is asked of the operands *)
    Lemma blockwise_local_gen : forall b (P1 P2 : list (list row)) j, (j < length b - 1)%nat ->
      nth j (blockwise2 f (spec_plan idx b P1) (spec_plan idx b P2)) []
      = filter (fun o => in_target b j (key o)) (f (concat P1) (concat P2)).
    Proof.
      intros b P1 P2 j Hj. rewrite blockwise2_spec. apply cuts_nth, Hj.
    Qed.

    Theorem aligned_blockwise_local : forall ds a1 a2 (P1 P2 : list (list row)),
      ds <> [] -> Forall (fun d => (2 <= length d)%nat) ds -> Forall Repart.sortedZ ds ->
      In a1 ds -> In a2 ds -> respects idx a1 P1 -> respects idx a2 P2 ->
      forall j, (j < length (align_divisions ds) - 1)%nat ->
      nth j (blockwise2 f (spec_plan idx (align_divisions ds) P1) (spec_plan idx (align_divisions ds) P2)) []
      = filter (fun o => in_target (align_divisions ds) j (key o)) (f (concat P1) (concat P2)).
    Proof. intros ds a1 a2 P1 P2 _ _ _ _ _ _ _ j Hj. apply blockwise_local_gen, Hj. Qed.

    Corollary aligned_blockwise_perm : forall ds a1 a2 (P1 P2 : list (list row)),
      ds <> [] -> Forall (fun d => (2 <= length d)%nat) ds -> Forall Repart.sortedZ ds ->
      In a1 ds -> In a2 ds -> respects idx a1 P1 -> respects idx a2 P2 ->
      (forall o, In o (f (concat P1) (concat P2)) ->
                 nthZ (align_divisions ds) 0 <= key o <= lastZ (align_divisions ds)) ->
      Permutation (concat (blockwise2 f (spec_plan idx (align_divisions ds) P1)
                                        (spec_plan idx (align_divisions ds) P2)))
                  (f (concat P1) (concat P2)).
    Proof.
      intros ds a1 a2 P1 P2 Hne Hl Hs _ _ _ _ Hkeys. rewrite blockwise2_spec.
      apply cut_perm; [apply align_sorted_len| apply align_sorted_len|exact Hkeys]; assumption.
    Qed.

    Theorem aligned_result_truthful : forall ds a1 a2 (P1 P2 : list (list row)),
      ds <> [] -> Forall (fun d => (2 <= length d)%nat) ds -> Forall Repart.sortedZ ds ->
      In a1 ds -> In a2 ds -> respects idx a1 P1 -> respects idx a2 P2 ->
      Divisions.truthful (align_divisions ds)
        (map (map key) (blockwise2 f (spec_plan idx (align_divisions ds) P1)
                                     (spec_plan idx (align_divisions ds) P2))).
    Proof.
      intros ds a1 a2 P1 P2 Hne Hl Hs _ _ _ _. rewrite blockwise2_spec.
      apply cut_truthful; apply align_sorted_len; assumption.
    Qed.
  End Local.
End Sem.

Lemma minl_le_maxl : forall l, minl l <= maxl l.
Proof.
  intros [|x l]; [unfold minl, maxl; cbn; lia|].
  assert (H : x :: l <> []) by discriminate.
  destruct (minl_spec _ H) as [_ H1]. destruct (maxl_spec _ H) as [_ H2].
  specialize (H1 x (or_introl eq_refl)). specialize (H2 x (or_introl eq_refl)). lia.
Qed.

Theorem align_single_truthful : forall (ds : list (list Z)) (Q : list Z),
  Forall (fun d => exists lo hi, d = [lo; hi] /\ lo <= hi) ds ->
  Forall (fun x => exists d, In d ds /\ nthZ d 0 <= x <= lastZ d) Q ->
  Divisions.truthful (align_single ds) [Q].
Proof.
  intros ds Q Hds HQ. unfold align_single. apply truthful_single; [apply minl_le_maxl|].
  intros x Hx.
  destruct (proj1 (Forall_forall _ _) HQ x Hx) as [d [Hd Hb]].
  destruct (proj1 (Forall_forall _ _) Hds d Hd) as [lo [hi [E Hle]]]. subst d.
  unfold nthZ, lastZ in Hb. cbn [nth last] in Hb.
  assert (Hlo : In lo (concat ds)) by (apply in_concat; exists [lo; hi]; split; [exact Hd|left; reflexivity]).
  assert (Hhi : In hi (concat ds)) by (apply in_concat; exists [lo; hi]; split; [exact Hd|right; left; reflexivity]).
  assert (Hne : concat ds <> []) by (intros E; rewrite E in Hlo; exact Hlo).
  pose proof (proj2 (minl_spec _ Hne) lo Hlo). pose proof (proj2 (maxl_spec _ Hne) hi Hhi). lia.
Qed.

Definition idZ (x : Z) : Z := x.

(* "use the left operand's divisions": a row of the second operand is lost *)
Theorem align_first_only_refuted :
  exists (ds : list (list Z)) (a : list Z) (P : list (list Z)) (r : Z),
    ds <> [] /\ Forall (fun d => (2 <= length d)%nat) ds /\ Forall Repart.sortedZ ds /\
    In a ds /\ respects idZ a P /\
    In r (concat P) /\
    ~ In r (concat (spec_plan idZ (align_divisions_first_only ds) P)) /\
    (* whereas the real rule keeps it *)
    In r (concat (spec_plan idZ (align_divisions ds) P)).
Proof.
  exists [[0; 5]; [3; 12]], [3; 12], [[7]], 7.
  split; [discriminate|]. split; [repeat constructor; cbn; lia|].
  split; [repeat constructor; cbn; lia|].
  split; [right; left; reflexivity|].
  split; [apply respects_forallb; reflexivity|].
  split; [left; reflexivity|].
  split; [vm_compute; intros H; exact H|vm_compute; left; reflexivity].
Qed.

(* unique() forgotten: the result is not a valid divisions vector, and an interior partition is
   declared for an empty range [b_j, b_{j+1}) with b_j = b_{j+1} (no value can ever fall into it).
   (A row is never duplicated: target_exactly_one only needs b non-decreasing.) *)
Theorem align_nodedup_refuted :
  exists ds : list (list Z),
    ds <> [] /\ Forall (fun d => (2 <= length d)%nat) ds /\ Forall Repart.sortedZ ds /\
    Forall (fun d => strict_incr d = true) ds /\
    valid_divs (align_divisions_nodedup ds) = false /\
    (exists j, (S (S j) < length (align_divisions_nodedup ds))%nat /\
               nthZ (align_divisions_nodedup ds) j = nthZ (align_divisions_nodedup ds) (S j) /\
               forall v, in_target (align_divisions_nodedup ds) j v = false) /\
    valid_divs (align_divisions ds) = true.
Proof.
  exists [[0; 5; 10]; [5; 10; 12]].
  split; [discriminate|]. split; [repeat constructor; cbn; lia|].
  split; [repeat constructor; cbn; lia|].
  split; [repeat constructor|].
  split; [vm_compute; reflexivity|].
  split; [|vm_compute; reflexivity].
  exists 1%nat. split; [vm_compute; lia|]. split; [vm_compute; reflexivity|].
  intros v. assert (E : align_divisions_nodedup [[0; 5; 10]; [5; 10; 12]] = [0; 5; 5; 10; 10; 12]) by (vm_compute; reflexivity).
  rewrite E. unfold in_target, nthZ. cbn [nth length]. lia.
Qed.

(* a concrete index-local operation: keep the rows of A whose index also occurs in B (semi-join) *)
Definition semi_f (A B : list Z) : list Z := filter (fun x => existsb (Z.eqb x) B) A.

Lemma existsb_filter_same : forall (p : Z -> bool) x B,
  p x = true -> existsb (Z.eqb x) (filter p B) = existsb (Z.eqb x) B.
Proof.
  intros p x B Hp. induction B as [|y B IH]; [reflexivity|].
  cbn [filter existsb]. destruct (p y) eqn:Ey.
  - cbn [existsb]. rewrite IH. reflexivity.
  - rewrite IH. destruct (Z.eqb_spec x y) as [->|_]; [congruence|reflexivity].
Qed.

Lemma semi_f_local : forall (p : Z -> bool) A B,
  filter (fun o => p (idZ o)) (semi_f A B)
  = semi_f (filter (fun r => p (idZ r)) A) (filter (fun r => p (idZ r)) B).
Proof.
  intros p A B. unfold semi_f, idZ. rewrite !filter_filter. apply filter_ext. intros x.
  destruct (p x) eqn:Ep; [|apply andb_false_r].
  rewrite (existsb_filter_same (fun r => p r) x B Ep). apply andb_true_r.
Qed.

Definition ex_ds : list (list Z) := [[0; 5; 10]; [3; 5; 12; 12]].
Definition ex_P1 : list (list Z) := [[0; 2; 4]; [5; 7; 10]].
Definition ex_P2 : list (list Z) := [[3; 4]; [5; 7; 11]; [12]].

Example ex_align : align_divisions ex_ds = [0; 3; 5; 10; 12].
Proof. vm_compute. reflexivity. Qed.

(* every hypothesis of align_partition_exact and of aligned_blockwise_local / _perm / aligned_result_truthful holds
   for this instance *)
Example ex_hypotheses :
  ex_ds <> [] /\ Forall (fun d => (2 <= length d)%nat) ex_ds /\ Forall Repart.sortedZ ex_ds /\
  In [0; 5; 10] ex_ds /\ In [3; 5; 12; 12] ex_ds /\
  respects idZ [0; 5; 10] ex_P1 /\ respects idZ [3; 5; 12; 12] ex_P2 /\
  (forall (p : Z -> bool) A B,
     filter (fun o => p (idZ o)) (semi_f A B)
     = semi_f (filter (fun r => p (idZ r)) A) (filter (fun r => p (idZ r)) B)) /\
  (forall o, In o (semi_f (concat ex_P1) (concat ex_P2)) ->
             nthZ (align_divisions ex_ds) 0 <= idZ o <= lastZ (align_divisions ex_ds)).
Proof.
  split; [discriminate|]. split; [repeat constructor; cbn; lia|].
  split; [repeat constructor; cbn; lia|].
  split; [left; reflexivity|]. split; [right; left; reflexivity|].
  split; [apply respects_forallb; reflexivity|]. split; [apply respects_forallb; reflexivity|].
  split; [exact semi_f_local|].
  intros o Ho. rewrite ex_align. unfold nthZ, lastZ, idZ. cbn [nth last].
  vm_compute in Ho. repeat (destruct Ho as [<-|Ho]; [lia|]). contradiction.
Qed.

(* the conclusions of those theorems on this instance, next to the computed partitions *)
Example ex_conclusions :
  Permutation (concat (spec_plan idZ (align_divisions ex_ds) ex_P1)) (concat ex_P1) /\
  Permutation (concat (spec_plan idZ (align_divisions ex_ds) ex_P2)) (concat ex_P2) /\
  (forall j, (j < length (align_divisions ex_ds) - 1)%nat ->
     nth j (blockwise2 semi_f (spec_plan idZ (align_divisions ex_ds) ex_P1)
                              (spec_plan idZ (align_divisions ex_ds) ex_P2)) []
     = filter (fun o => in_target (align_divisions ex_ds) j (idZ o)) (semi_f (concat ex_P1) (concat ex_P2))) /\
  Permutation (concat (blockwise2 semi_f (spec_plan idZ (align_divisions ex_ds) ex_P1)
                                         (spec_plan idZ (align_divisions ex_ds) ex_P2)))
              (semi_f (concat ex_P1) (concat ex_P2)) /\
  Divisions.truthful (align_divisions ex_ds)
    (map (map idZ) (blockwise2 semi_f (spec_plan idZ (align_divisions ex_ds) ex_P1)
                                      (spec_plan idZ (align_divisions ex_ds) ex_P2))) /\
  spec_plan idZ (align_divisions ex_ds) ex_P1 = [[0; 2]; [4]; [5; 7]; [10]] /\
  spec_plan idZ (align_divisions ex_ds) ex_P2 = [[]; [3; 4]; [5; 7]; [11; 12]] /\
  blockwise2 semi_f (spec_plan idZ (align_divisions ex_ds) ex_P1) (spec_plan idZ (align_divisions ex_ds) ex_P2)
    = [[]; [4]; [5; 7]; []] /\
  semi_f (concat ex_P1) (concat ex_P2) = [4; 5; 7].
Proof.
  destruct ex_hypotheses as [H1 [H2 [H3 [H4 [H5 [H6 [H7 [H8 H9]]]]]]]].
  split; [exact (proj2 (align_partition_exact Z idZ ex_ds _ ex_P1 H1 H2 H3 H4 H6))|].
  split; [exact (proj2 (align_partition_exact Z idZ ex_ds _ ex_P2 H1 H2 H3 H5 H7))|].
  split; [exact (aligned_blockwise_local Z idZ Z semi_f idZ H8 ex_ds _ _ ex_P1 ex_P2 H1 H2 H3 H4 H5 H6 H7)|].
  split; [exact (aligned_blockwise_perm Z idZ Z semi_f idZ H8 ex_ds _ _ ex_P1 ex_P2 H1 H2 H3 H4 H5 H6 H7 H9)|].
  split; [exact (aligned_result_truthful Z idZ Z semi_f idZ H8 ex_ds _ _ ex_P1 ex_P2 H1 H2 H3 H4 H5 H6 H7)|].
  repeat split; vm_compute; reflexivity.
Qed.

Print Assumptions merge_sorted_perm.
Print Assumptions merge_sorted_sorted.
Print Assumptions unique_sorted_strict.
Print Assumptions unique_In.
Print Assumptions align_valid.
Print Assumptions align_strict_or_point.
Print Assumptions align_contains.
Print Assumptions align_only.
Print Assumptions align_bounds.
Print Assumptions align_covers.
Print Assumptions target_exactly_one.
Print Assumptions spec_plan_perm_valid.
Print Assumptions align_partition_exact.
Print Assumptions align_copartitioned.
Print Assumptions align_same_partition.
Print Assumptions aligned_blockwise_local.
Print Assumptions aligned_blockwise_perm.
Print Assumptions align_truthful.
Print Assumptions aligned_result_truthful.
Print Assumptions align_single_truthful.
Print Assumptions align_first_only_refuted.
Print Assumptions align_nodedup_refuted.
Print Assumptions semi_f_local.
Print Assumptions ex_hypotheses.
Print Assumptions ex_conclusions.

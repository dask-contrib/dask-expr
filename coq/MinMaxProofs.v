(* MinMaxProofs.v -- divisions derived from (min, max) statistics are truthful exactly when the
   statistics are strictly separated. *)
From DX Require Import Base ListFacts Divisions DivisionsProofs MinMax.
From Coq Require Import Permutation.

Local Notation d0 := (0%Z, 0%Z).

(* The statistics describe one-partition frames [min_i; max_i]; strictly separated, they are concatenated along
   the rows, and mm_divisions is the divisions vector Concat reports. *)
Definition frame1 (a : mm) : list Z := [fst a; snd a].

Lemma separatedb_mm_adjb : forall l, separatedb_mm l = adjb (fun a b => (snd a <? fst b)%Z) l.
Proof. reflexivity. Qed.

Lemma join_frame1 : forall l, l <> [] -> join_divisions (map frame1 l) = mm_divisions l.
Proof.
  induction l as [|a [|b r] IH]; intros Hne; [congruence|reflexivity|].
  change (fst a :: join_divisions (map frame1 (b :: r)) = fst a :: mm_divisions (b :: r)).
  rewrite IH by discriminate. reflexivity.
Qed.

Lemma separatedb_frame1 : forall l, separatedb (map frame1 l) = separatedb_mm l.
Proof.
  intros l. rewrite separatedb_adjb, adjb_map, separatedb_mm_adjb. reflexivity.
Qed.

Lemma Forall2_nth : forall (A B : Type) (R : A -> B -> Prop) (da : A) (db : B) (l : list A) (l' : list B),
  length l = length l' -> (forall i, i < length l -> R (nth i l da) (nth i l' db)) -> Forall2 R l l'.
Proof.
  intros A B R da db. induction l as [|a l IH]; intros [|b l'] Hl H; try discriminate; constructor.
  - apply (H 0). simpl. lia.
  - apply IH; [simpl in Hl; lia|]. intros i Hi. apply (H (S i)). simpl. lia.
Qed.

Theorem mm_truthful : forall l parts,
  stats_ok l parts -> wf_stats l -> l <> [] -> separatedb_mm l = true ->
  truthful (mm_divisions l) parts.
Proof.
  intros l parts [Hlen Hok] Hwf Hne Hsep.
  rewrite <- (join_frame1 l Hne), <- (concat_singletons parts).
  apply (concat_truthful_n (map frame1 l)).
  - apply Forall2_nth with (da := frame1 d0) (db := [[]]); [rewrite !map_length; exact Hlen|].
    intros i Hi. rewrite map_length in Hi. rewrite (map_nth frame1), (map_nth (fun p => [p])).
    apply truthful_single; [apply Hwf; exact Hi|]. intros x Hx. apply Hok; [lia|exact Hx].
  - unfold concat_divisions. rewrite separatedb_frame1, Hsep. destruct l; [congruence|reflexivity].
Qed.

(* the separation as a statement about neighbours; no statistics: no partition *)
Corollary mm_truthful_sep : forall l parts,
  stats_ok l parts -> wf_stats l ->
  (forall i, S i < length l -> (snd (nth i l d0) < fst (nth (S i) l d0))%Z) ->
  truthful (mm_divisions l) parts.
Proof.
  intros l parts Hok Hwf Hs. destruct l as [|a l].
  - destruct Hok as [Hl _]. destruct parts; [apply truthful_nil|discriminate].
  - apply mm_truthful; [exact Hok|exact Hwf|discriminate|].
    rewrite separatedb_mm_adjb. apply (adjb_nth _ d0).
    intros i Hi. apply Z.ltb_lt, Hs, Hi.
Qed.

(* the presorted fast path of set_index / sort_values *)
Theorem presorted_truthful : forall l parts d,
  stats_ok l parts -> wf_stats l -> presorted_divisions l = Some d -> truthful d parts.
Proof.
  intros l parts d Hok Hwf H. unfold presorted_divisions in H.
  destruct (presortedb l && negb (is_nil l)) eqn:E; [|discriminate].
  injection H as <-.
  apply andb_true_iff in E. destruct E as [E1 E2].
  unfold presortedb in E1. apply andb_true_iff in E1. destruct E1 as [_ E3].
  apply mm_truthful; auto.
  intros ->. simpl in E2. discriminate.
Qed.

(* the relaxed test, which lets neighbours touch, is wrong *)
Theorem presorted_touching_refuted : exists l parts d,
  stats_ok l parts /\ wf_stats l /\ presorted_divisions_touching l = Some d /\ ~ truthful d parts.
Proof.
  exists [(0,3);(3,5)]%Z, [[0;3];[3;4]]%Z, [0;3;5]%Z.
  split; [|split; [|split]].
  - split; [reflexivity|].
    intros i x Hi Hx. simpl in Hi.
    destruct i as [|[|i]]; [| |lia].
    + simpl in Hx. destruct Hx as [<-|[<-|[]]]; simpl; lia.
    + simpl in Hx. destruct Hx as [<-|[<-|[]]]; simpl; lia.
  - intros i Hi. simpl in Hi. destruct i as [|[|i]]; simpl; lia.
  - vm_compute. reflexivity.
  - apply truthfulb_false. vm_compute. reflexivity.
Qed.

Lemma insert_idx_perm : forall l j p, Permutation (insert_idx l j p) (j :: p).
Proof.
  intros l j p. induction p as [|k r IH]; cbn [insert_idx]; [reflexivity|].
  destruct (mm_leb (nth k l d0) (nth j l d0)); [|reflexivity]. rewrite IH. apply perm_swap.
Qed.

Lemma fold_insert_perm : forall l xs acc,
  Permutation (fold_left (fun p j => insert_idx l j p) xs acc) (xs ++ acc).
Proof.
  intros l xs. induction xs as [|x xs IH]; intros acc; cbn [fold_left app]; [reflexivity|].
  rewrite IH, insert_idx_perm. symmetry. apply Permutation_middle.
Qed.

Theorem argsort_perm : forall l, Permutation (argsort l) (seq 0 (length l)).
Proof. intros l. unfold argsort. rewrite fold_insert_perm, app_nil_r. reflexivity. Qed.

Corollary argsort_bound : forall l j, In j (argsort l) -> j < length l.
Proof.
  intros l j H. apply (Permutation_in j (argsort_perm l)) in H.
  apply in_seq in H. lia.
Qed.

Corollary argsort_length : forall l, length (argsort l) = length l.
Proof.
  intros l. rewrite (Permutation_length (argsort_perm l)). apply seq_length.
Qed.

Lemma reindex_length : forall {A} (l : list A) p d, length (reindex l p d) = length p.
Proof. intros. apply map_length. Qed.

Lemma reindex_nth : forall {A} (l : list A) p d i, i < length p -> nth i (reindex l p d) d = nth (nth i p 0) l d.
Proof. intros A l p d i. apply (nth_map_lt 0 (fun j => nth j l d)). Qed.

(* read_parquet(calculate_divisions=True) *)
Theorem stats_truthful : forall l parts d p,
  stats_ok l parts -> wf_stats l -> stats_divisions l = Some (d, p) ->
  truthful d (reindex parts p []) /\ Permutation p (seq 0 (length parts)).
Proof.
  intros l parts d p [Hlen Hok] Hwf H. unfold stats_divisions in H.
  destruct (separatedb_mm (reindex l (argsort l) d0) && negb (is_nil l)) eqn:E; [|discriminate].
  injection H as <- <-.
  apply andb_true_iff in E. destruct E as [E1 E2].
  split; [|rewrite <- Hlen; apply argsort_perm].
  apply mm_truthful.
  - split; [rewrite !reindex_length; reflexivity|].
    intros i x Hi Hx. rewrite reindex_length in Hi. rewrite reindex_nth in Hx by exact Hi.
    rewrite reindex_nth by exact Hi. apply Hok; [|exact Hx]. rewrite <- Hlen. apply argsort_bound, nth_In, Hi.
  - intros i Hi. rewrite reindex_length in Hi. rewrite reindex_nth by exact Hi.
    apply Hwf, argsort_bound, nth_In, Hi.
  - intros Hn. apply (f_equal (@length _)) in Hn. rewrite reindex_length, argsort_length in Hn.
    destruct l; simpl in *; discriminate.
  - exact E1.
Qed.

(* the unfixed code (defect D30) *)
Theorem stats_old_refuted : exists l parts,
  stats_ok l parts /\ wf_stats l /\
  ~ truthful (fst (stats_divisions_old l)) (reindex parts (snd (stats_divisions_old l)) []).
Proof.
  exists [(5,9);(0,5)]%Z, [[5;9];[0;5]]%Z.
  split; [|split].
  - split; [reflexivity|].
    intros i x Hi Hx. simpl in Hi.
    destruct i as [|[|i]]; [| |lia].
    + simpl in Hx. destruct Hx as [<-|[<-|[]]]; simpl; lia.
    + simpl in Hx. destruct Hx as [<-|[<-|[]]]; simpl; lia.
  - intros i Hi. simpl in Hi. destruct i as [|[|i]]; simpl; lia.
  - apply truthfulb_false. vm_compute. reflexivity.
Qed.

Definition isorted (l : list mm) (p : list nat) : Prop :=
  adjb (fun a b => mm_leb (nth a l d0) (nth b l d0)) p = true.

Lemma mm_leb_total : forall a b, mm_leb a b = false -> mm_leb b a = true.
Proof. intros [a1 a2] [b1 b2]. unfold mm_leb. cbn [fst snd]. lia. Qed.

Lemma mm_leb_trans : forall a b c, mm_leb a b = true -> mm_leb b c = true -> mm_leb a c = true.
Proof. intros [a1 a2] [b1 b2] [c1 c2]. unfold mm_leb. cbn [fst snd]. lia. Qed.

(* j goes behind the head k as long as k <= j (E): the new neighbour of k is j or the old one (H1); otherwise j goes in
   front of k, and j <= k by totality *)
Lemma insert_sorted : forall l j p, isorted l p -> isorted l (insert_idx l j p).
Proof.
  intros l j p. unfold isorted. induction p as [|k r IH]; intros H; [reflexivity|].
  cbn [insert_idx]. destruct (mm_leb (nth k l d0) (nth j l d0)) eqn:E.
  - destruct r as [|k2 r2]; [cbn; rewrite E; reflexivity|].
    cbn [adjb] in H. apply andb_true_iff in H. destruct H as [H1 H2]. specialize (IH H2).
    cbn [insert_idx] in IH |- *.
    destruct (mm_leb (nth k2 l d0) (nth j l d0)); cbn [adjb] in IH |- *; rewrite ?H1, ?E; exact IH.
  - cbn [adjb]. rewrite (mm_leb_total _ _ E). exact H.
Qed.

Theorem argsort_sorted : forall l i,
  S i < length l ->
  mm_leb (nth (nth i (argsort l) 0) l (0%Z,0%Z)) (nth (nth (S i) (argsort l) 0) l (0%Z,0%Z)) = true.
Proof.
  intros l i Hi. rewrite <- argsort_length in Hi.
  apply (proj1 (adjb_nth (fun a b => mm_leb (nth a l d0) (nth b l d0)) 0 (argsort l))); [|exact Hi].
  unfold argsort. apply (fold_left_inv _ (isorted l)); [|reflexivity]. intros p j _. apply insert_sorted.
Qed.

Print Assumptions mm_truthful.
Print Assumptions presorted_truthful.
Print Assumptions presorted_touching_refuted.
Print Assumptions argsort_perm.
Print Assumptions argsort_bound.
Print Assumptions argsort_length.
Print Assumptions stats_truthful.
Print Assumptions stats_old_refuted.
Print Assumptions argsort_sorted.
